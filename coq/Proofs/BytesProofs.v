From VF Require Import Bytes.
From Coq Require Import Lia ZifyBool ZifyNat.
(* with this, lia handles / and mod; the setting reaches every file that requires this one *)
Ltac Zify.zify_post_hook ::= Z.div_mod_to_equations.

Lemma snoc_cases {A} (l : list A) : l = [] \/ exists a x, l = a ++ [x].
Proof. destruct l as [|x a _] using rev_ind; eauto. Qed.

Lemma firstn_app_exact {A} (a b : list A) : firstn (length a) (a ++ b) = a.
Proof. rewrite firstn_app, Nat.sub_diag, firstn_all. apply app_nil_r. Qed.

Lemma skipn_app_exact {A} (a b : list A) : skipn (length a) (a ++ b) = b.
Proof. rewrite skipn_app, Nat.sub_diag, skipn_all. reflexivity. Qed.

Lemma firstn_app_le {A} k (a b : list A) : (k <= length a)%nat -> firstn k (a ++ b) = firstn k a.
Proof. intros H. rewrite firstn_app. replace (k - length a)%nat with O by lia. apply app_nil_r. Qed.

Lemma skipn_app_le {A} k (a b : list A) : (k <= length a)%nat -> skipn k (a ++ b) = skipn k a ++ b.
Proof. intros H. rewrite skipn_app. replace (k - length a)%nat with O by lia. reflexivity. Qed.

Lemma firstn_middle {A} (a : list A) x b : firstn (S (length a)) (a ++ x :: b) = a ++ [x].
Proof. induction a as [|y a IH]; [reflexivity | exact (f_equal (cons y) IH)]. Qed.

Lemma skipn_middle {A} (a : list A) x b : skipn (S (length a)) (a ++ x :: b) = b.
Proof. induction a as [|y a IH]; [reflexivity | exact IH]. Qed.

Lemma firstn_mid_lt {A} n (pre : list A) b post :
  (length pre < n)%nat -> firstn n (pre ++ b :: post) = pre ++ b :: firstn (n - S (length pre)) post.
Proof.
  intros H. rewrite firstn_app, firstn_all2 by lia. replace (n - length pre)%nat with (S (n - S (length pre))) by lia. reflexivity.
Qed.

Lemma skipn_mid_lt {A} n (pre : list A) b post :
  (length pre < n)%nat -> skipn n (pre ++ b :: post) = skipn (n - S (length pre)) post.
Proof.
  intros H. rewrite skipn_app, skipn_all2 by lia. replace (n - length pre)%nat with (S (n - S (length pre))) by lia. reflexivity.
Qed.

Lemma skipn_skipn_add {A} (n m : nat) (l : list A) : skipn n (skipn m l) = skipn (m + n) l.
Proof. revert l. induction m as [|m IH]; intros [|x l]; try reflexivity; [apply skipn_nil | apply IH]. Qed.

Lemma Forall_firstn {A} (Q : A -> Prop) n l : Forall Q l -> Forall Q (firstn n l).
Proof. intros H. revert n. induction H; intros [|n]; simpl; constructor; auto. Qed.

Lemma Forall_skipn {A} (Q : A -> Prop) n l : Forall Q l -> Forall Q (skipn n l).
Proof. intros H. revert n. induction H; intros [|n]; simpl; auto. Qed.

Lemma Forall_map_all {A B} (Q : B -> Prop) (f : A -> B) l : (forall x, Q (f x)) -> Forall Q (map f l).
Proof. intros H. apply Forall_map, Forall_forall. intros x _. apply H. Qed.

(* What a reader at position p of the stream s has in front of it is [skipn p s]. The lemmas about positions here, and
   slice_into / slice_exact below, are read off an equation [skipn p s = b ++ l]: the reader may take b, or a part of it. *)
Lemma skipn_into {A} {s b l : list A} {p} n :
  skipn p s = b ++ l -> (n <= length b)%nat -> skipn (p + n) s = skipn n b ++ l.
Proof.
  intros H Hn. rewrite <- skipn_skipn_add, H, skipn_app.
  replace (n - length b)%nat with O by lia. reflexivity.
Qed.

Lemma skipn_past {A} {s b l : list A} {p} : skipn p s = b ++ l -> skipn (p + length b) s = l.
Proof. intros H. rewrite (skipn_into _ H (le_n _)), skipn_all. reflexivity. Qed.

Lemma le_encode_length n v : length (le_encode n v) = n.
Proof. revert v; induction n as [|n IH]; simpl; intros; [reflexivity|]. now rewrite IH. Qed.

Lemma le_encode_bytes n v : bytes (le_encode n v).
Proof.
  revert v; induction n as [|n IH]; simpl; intros v; constructor.
  - apply Z.mod_pos_bound; lia.
  - apply IH.
Qed.

Lemma le_decode_encode n v : 0 <= v < 256 ^ (Z.of_nat n) -> le_decode (le_encode n v) = v.
Proof.
  revert v; induction n as [|n IH]; intros v Hv.
  - simpl in *. lia.
  - cbn [le_encode le_decode]. rewrite IH.
    + pose proof (Z.div_mod v 256). lia.
    + rewrite Nat2Z.inj_succ, Z.pow_succ_r in Hv by lia.
      split; [apply Z.div_pos; lia|]. apply Z.div_lt_upper_bound; lia.
Qed.

Lemma le_decode_range l : bytes l -> 0 <= le_decode l < 256 ^ (Z.of_nat (length l)).
Proof.
  induction 1 as [|b l Hb _ IH]; [simpl; lia|].
  cbn [le_decode length]. rewrite Nat2Z.inj_succ, Z.pow_succ_r by lia. lia.
Qed.

Lemma le_decode_inj l1 l2 : bytes l1 -> bytes l2 -> length l1 = length l2 ->
  le_decode l1 = le_decode l2 -> l1 = l2.
Proof.
  intros H1; revert l2; induction H1 as [|a l1 Ha _ IH]; intros l2 H2 Hl E.
  - destruct l2; [reflexivity|discriminate].
  - destruct l2 as [|b l2]; [discriminate|]. inversion H2 as [|? ? Hb H2']; subst.
    cbn [le_decode] in E. injection Hl as Hl.
    assert (a = b) by lia. subst b. f_equal. apply IH; auto. lia.
Qed.

Lemma le_encode_decode l : bytes l -> le_encode (length l) (le_decode l) = l.
Proof.
  intros H. apply le_decode_inj; auto using le_encode_bytes.
  - apply le_encode_length.
  - rewrite le_decode_encode; [reflexivity|]. apply le_decode_range; exact H.
Qed.

Lemma bytes_app a b : bytes a -> bytes b -> bytes (a ++ b).
Proof. unfold bytes. intros. apply Forall_app; auto. Qed.

Lemma slice_into {s b l : list Z} {p} n :
  skipn p s = b ++ l -> (n <= length b)%nat -> slice p n s = firstn n b.
Proof.
  intros H Hn. unfold slice. rewrite H, firstn_app.
  replace (n - length b)%nat with O by lia. apply app_nil_r.
Qed.

Lemma slice_exact {s b l : list Z} {p n} : skipn p s = b ++ l -> length b = n -> slice p n s = b.
Proof. intros H <-. rewrite (slice_into _ H (le_n _)). apply firstn_all. Qed.

Lemma bytes_slice o n l : bytes l -> bytes (slice o n l).
Proof. intros. apply Forall_firstn, Forall_skipn. assumption. Qed.

Lemma get_le_0_app_dec a b n : length a = n -> get_le 0 n (a ++ b) = le_decode a.
Proof. intros H. unfold get_le. now rewrite (slice_exact (p := 0) (eq_refl (a ++ b)) H). Qed.

Lemma get_le_skip a b n o m : length a = n -> (n <= o)%nat -> get_le o m (a ++ b) = get_le (o - n) m b.
Proof. intros <- Hle. unfold get_le, slice. rewrite skipn_app, skipn_all2 by lia. reflexivity. Qed.

Lemma get_le_skip_dec a b n m : length a = n -> get_le n m (a ++ b) = get_le 0 m b.
Proof. intros H. rewrite (get_le_skip a b n n) by lia. now rewrite Nat.sub_diag. Qed.

Lemma zeros_length n : length (zeros n) = n.
Proof. induction n; cbn; congruence. Qed.

Lemma le_decode_zeros l : Forall (fun b => b = 0) l -> le_decode l = 0.
Proof. induction 1 as [|b l -> _ IH]; simpl; [reflexivity|]. rewrite IH. reflexivity. Qed.

Lemma get_le_zeros o n k : get_le o n (zeros k) = 0.
Proof.
  apply le_decode_zeros, Forall_firstn, Forall_skipn. induction k; constructor; auto.
Qed.

Lemma splice_length k src (d : list Z) : (k + length src <= length d)%nat -> length (splice k src d) = length d.
Proof. intros H. unfold splice. rewrite !app_length, firstn_length, skipn_length. lia. Qed.

Lemma splice_app_l (k : nat) src (d rest : list Z) : (k + length src <= length d)%nat ->
  splice k src (d ++ rest) = splice k src d ++ rest.
Proof. intros H. unfold splice. rewrite firstn_app_le, skipn_app_le, <- !app_assoc by lia. reflexivity. Qed.

Lemma splice_app_r (pre : list Z) k src d : splice (length pre + k) src (pre ++ d) = pre ++ splice k src d.
Proof.
  unfold splice. rewrite firstn_app_2, <- Nat.add_assoc, skipn_app, skipn_all2, Nat.add_comm, Nat.add_sub, <- app_assoc by lia.
  reflexivity.
Qed.

Lemma splice_exact (pre old rest src : list Z) : length src = length old ->
  splice (length pre) src (pre ++ old ++ rest) = pre ++ src ++ rest.
Proof.
  intros H. rewrite <- (Nat.add_0_r (length pre)), splice_app_r. unfold splice. cbn [firstn app Nat.add].
  rewrite H, skipn_app_exact. reflexivity.
Qed.

Lemma firstn_splice k src (d : list Z) : (k <= length d)%nat -> firstn k (splice k src d) = firstn k d.
Proof.
  intros H. unfold splice. rewrite firstn_app_le by (rewrite firstn_length; lia). rewrite firstn_firstn, Nat.min_id. reflexivity.
Qed.
