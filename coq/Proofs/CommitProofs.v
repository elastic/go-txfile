(* The disk events of a commit (Model/Commit.v) follow the write discipline: for every monitor state between two
   commits and every commit whose page writes stay off the pages the committed state can reach, the monitor accepts
   the whole sequence, and the state it then protects is exactly the one the commit serialised (mapping, free lists,
   root, end markers). With the crash theorem (Proofs/CrashInst.v) this composes to: a commit of the model is atomic
   at every crash point. *)
From VF Require Import Commit Crash CrashInst PagesProofs MetaProofs.
From Coq Require Import Lia ZifyBool.

Notation mapply := (apply cell).

Definition cw (w : Z * page) : Z * cell := (fst w, Some (snd w)).

Lemma wev_cw ws : map wev ws = map (fun w => W (fst w) (snd w)) (map cw ws).
Proof. rewrite map_map. reflexivity. Qed.

Lemma dataw_cw cfp (ws : list (Z * page)) :
  Forall (fun id => 2 <= id /\ ~ In id cfp) (map fst ws) -> Forall (dataw cell cfp) (map cw ws).
Proof. rewrite !Forall_map. exact (fun H => H). Qed.

(* pages written once each, last: the disk holds them whatever was written before *)
Lemma apply_written (ws : list (Z * page)) pre d id pg :
  NoDup (map fst ws) -> In (id, pg) ws -> mapply (pre ++ map cw ws) d id = Some pg.
Proof.
  intros Hnd Hin. rewrite apply_app. apply apply_nodup; [rewrite map_map; exact Hnd | exact (in_map cw _ _ Hin)].
Qed.

Lemma split_entries_lists (ml dl : regions) :
  split_entries (map (pair true) ml ++ map (pair false) dl) = (ml, dl).
Proof.
  unfold split_entries. induction ml as [|x ml IH]; cbn.
  - induction dl as [|y dl IH]; cbn; [reflexivity|]. injection IH as E1 E2. rewrite E1, E2. reflexivity.
  - injection IH as E1 E2. rewrite E1, E2. reflexivity.
Qed.

Section Commit.
Variable fuel : nat.
Notation mrun := (mon_run fuel).

Lemma chase_full_of_chains (d : cdisk) h wids wes fids ml dl :
  read_wal fuel d (h_wal h) = Some (wids, wes) ->
  read_freelist fuel d (h_freelist h) = Some (fids, map (pair true) ml ++ map (pair false) dl) ->
  Forall (fun id => 2 <= id) (wids ++ fids) ->
  exists cells fp, chase_full fuel d h =
    Some ({| r_root := h_root h; r_txid := h_txid h; r_maxSize := h_maxSize h;
             r_wal := wes; r_walpages := wids; r_flpages := fids;
             r_metaFree := optimize ml; r_dataFree := optimize dl;
             r_dataEnd := h_dataEnd h; r_metaEnd := h_metaEnd h; r_metaTotal := h_metaTotal h |}, cells, fp).
Proof.
  intros Hw Hf Hge. unfold chase_full, chase. rewrite Hw, Hf, split_entries_lists.
  replace (all_ge2 (wids ++ fids)) with true; [cbn [negb]; eauto|].
  symmetry. apply forallb_forall. intros x Hx. apply Z.leb_le. exact (proj1 (Forall_forall _ _) Hge x Hx).
Qed.

Theorem commit_accepted (m : mon) ps sched walIds mapping flIds metaL dataL h evs :
  infl m = None ->
  commit_events ps (negb (act m)) sched walIds mapping flIds metaL dataL h = Some evs ->
  (* where the commit writes: not the header pages, not a page the committed state can reach *)
  Forall (fun w => 2 <= fst w /\ ~ In (fst w) (cfp m)) sched ->
  Forall (fun id => 2 <= id < 2^64 /\ ~ In id (cfp m)) (walIds ++ flIds) ->
  NoDup (walIds ++ flIds) ->
  (* the new header: next transaction id, the roots of the two new chains *)
  header_ok h -> h_magic h = magic -> h_version h = version -> h_txid h = nxt_txid (txid m) ->
  h_wal h = hd 0 walIds -> h_freelist h = hd 0 flIds ->
  (walIds = [] -> mapping = []) -> (flIds = [] -> metaL = [] /\ dataL = []) ->
  (* what is serialised can be encoded *)
  Forall (fun kv => 0 <= fst kv < 2^56 /\ 0 <= snd kv < 2^56) mapping -> Z.of_nat (length mapping) < 2^32 ->
  Forall valid_region metaL -> Forall valid_region dataL -> Z.of_nat (length metaL + length dataL) < 2^32 ->
  (length walIds <= fuel)%nat -> (length flIds <= fuel)%nat ->
  exists m', mrun m evs = Some m' /\
    act m' = negb (act m) /\ txid m' = nxt_txid (txid m) /\ infl m' = None /\ pend m' = [] /\
    let st := fst (cst m') in
    r_wal st = mapping /\ r_walpages st = walIds /\ r_flpages st = flIds /\
    r_metaFree st = optimize metaL /\ r_dataFree st = optimize dataL /\
    r_root st = h_root h /\ r_txid st = h_txid h /\ r_dataEnd st = h_dataEnd h /\ r_metaEnd st = h_metaEnd h /\
    r_metaTotal st = h_metaTotal h /\ r_maxSize st = h_maxSize h.
Proof.
  intros Hinfl Hev Hsched Hids Hnd Hok Hmag Hver Htx Hwal Hfl Hw0 Hf0 Hmap Hmaplen Hml Hdl Hlen Hfw Hff.
  unfold commit_events in Hev.
  destruct (write_wal ps walIds mapping) as [wp|] eqn:Ewp; [|discriminate].
  destruct (write_freelists ps flIds metaL dataL) as [fp|] eqn:Efp; [|discriminate].
  injection Hev as <-.
  assert (Hmeta : map fst (wp ++ fp) = walIds ++ flIds)
    by (rewrite map_app, (write_list_ids _ _ _ _ Ewp), (write_list_ids _ _ _ _ Efp); reflexivity).
  (* after the first sync the disk holds both chains *)
  set (ws := map cw (sched ++ wp ++ fp)). set (d1 := mapply (pend m ++ ws) (dd m)).
  assert (Hd1 : forall id pg, In (id, pg) (wp ++ fp) -> d1 id = Some pg).
  { intros id pg Hin. unfold d1, ws. rewrite map_app, app_assoc. apply apply_written; [rewrite Hmeta; exact Hnd | exact Hin]. }
  (* so recovery from the new header reads them back *)
  assert (Hpos : Forall (fun id => 0 < id < 2^64) walIds /\ Forall (fun id => 0 < id < 2^64) flIds)
    by (apply Forall_app; eapply Forall_impl; [|exact Hids]; cbv beta; lia).
  destruct (header_roundtrip h Hok) as (_ & _ & _ & Hmax' & _ & Hroot' & Htx' & Hfl' & Hwal' & Hde' & Hme' & Hmt').
  set (h' := decode_header (encode_header h)) in *.
  destruct (chase_full_of_chains d1 h' walIds mapping flIds metaL dataL) as (cells & fp' & Hch).
  { rewrite Hwal', Hwal. apply (wal_chain_roundtrip ps walIds mapping wp d1 fuel Hw0 (proj1 Hpos) Hmap Hmaplen Ewp); [|exact Hfw].
    intros id pg Hin. apply Hd1, in_or_app. auto. }
  { rewrite Hfl', Hfl. apply (freelist_chain_roundtrip ps flIds metaL dataL fp d1 fuel Hf0 (proj2 Hpos) Hml Hdl Hlen Efp); [|exact Hff].
    intros id pg Hin. apply Hd1, in_or_app. auto. }
  { eapply Forall_impl; [|exact Hids]. cbv beta. lia. }
  (* the monitor accepts the page writes, the sync, the header, the sync and the return *)
  assert (Hhdr : hdr_of (Some (encode_header h)) = Some (nxt_txid (txid m), h')).
  { unfold hdr_of. rewrite (finalized_header_valid h Hok Hmag Hver). fold h'. rewrite Htx', Htx. reflexivity. }
  rewrite !app_assoc, <- !map_app, <- app_assoc, wev_cw. fold ws.
  eexists. split.
  - unfold mon_run. eapply run_commit; [exact Hinfl| |exact Hhdr|exact Hch].
    unfold ws. rewrite map_app. apply Forall_app. split; [apply Forall_map; exact Hsched|].
    apply dataw_cw. rewrite Hmeta. eapply Forall_impl; [|exact Hids]. intros id [[H2 _] Hn]. exact (conj H2 Hn).
  - repeat split; try reflexivity; assumption.
Qed.

Lemma mon_run_app : forall a (m : mon) b m', mrun m (a ++ b) = Some m' -> exists m1, mrun m a = Some m1 /\ mrun m1 b = Some m'.
Proof.
  intros a m b m' Hr. unfold mon_run in *. rewrite run_app in Hr.
  destruct (run _ _ _ _ _ _ m a) as [m1|]; [|discriminate]. exists m1. split; [reflexivity | exact Hr].
Qed.

End Commit.
