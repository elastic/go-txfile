(* C01 -- Crash atomicity and durability of committed transactions.
   The disk is a function from page ids to page contents; a trace is a list of page writes, completed
   syncs and "Commit returned success" marks. The monitor (Model/CrashModel.v step, instantiated in
   Model/Monitor.v) accepts a trace iff it follows the commit protocol's write discipline:
     - a page >= 2 is only written while no header write is in flight and only if it is not a page the
       committed state can reach (its meta pages, live pages at their physical location, overwrite pages);
     - the header goes to the INACTIVE slot, validates, carries txid+1 (mod 2^64), is written only when
       no earlier write is pending, and the state it describes is completely recoverable from the
       durable disk at that moment; the active slot is never written;
     - Commit returns only after the sync that follows the header write.
   Theorem: for EVERY accepted trace, EVERY prefix and EVERY sub-list of the not yet synced page writes
   reaching the disk (a torn header = an invalid one): recovery returns exactly the last committed view,
   or - while a commit is in flight - exactly the complete view of that commit. The view is the
   allocator state + mapping + root + the content of every page a reader can reach.
   The implementation's traces are checked against the monitor on every run (extracted monitor), and
   recovery itself (recover_image) is compared with the real open path on real images. *)
From VF Require Import Monitor Crash CrashInst.

Theorem C01_crash_atomic : forall fuel evs m0 m,
  MInv fuel m0 -> mon_run fuel m0 evs = Some m ->
  forall ws, crashsub cell header hdr_of (pend m) ws ->
  mon_recover fuel (apply cell ws (dd m)) = Some (cst m) \/
  (exists c h v fp, infl m = Some (c, h, v, fp) /\ mon_recover fuel (apply cell ws (dd m)) = Some v).
Proof. exact crash_atomic_concrete. Qed.
Print Assumptions C01_crash_atomic.

(* the monitor's initial state (computed from a synced image: after creation, after an open, after a
   recovery) satisfies the invariant, and every accepted step keeps it: the theorem applies again to
   whatever is done with a recovered file *)
Theorem C01_init_invariant : forall fuel base m, mon_init fuel base = Some m -> MInv fuel m.
Proof. exact mon_init_inv. Qed.
Theorem C01_step_invariant : forall fuel m e m', MInv fuel m -> mon_step fuel m e = Some m' -> MInv fuel m'.
Proof. exact mon_step_inv. Qed.
Print Assumptions C01_step_invariant.

(* recovery depends only on the pages it reads (frame), all of them are >= 2 *)
Theorem C01_recover_frame : forall fuel (d d' : cdisk) h v fp,
  chase_full fuel d h = Some (v, fp) -> (forall p, In p fp -> d' p = d p) -> chase_full fuel d' h = Some (v, fp).
Proof. exact chase_full_frame. Qed.
Theorem C01_footprint_above_headers : forall fuel (d : cdisk) h v fp,
  chase_full fuel d h = Some (v, fp) -> forall p, In p fp -> 2 <= p.
Proof. exact chase_full_ge2. Qed.

(* the transaction id order survives the 2^64 wrap-around *)
Theorem C01_txid_order : forall t, txid_newer (nxt_txid t) t = true /\ txid_newer t (nxt_txid t) = false.
Proof. exact nxt_txid_newer. Qed.
Print Assumptions C01_txid_order.

(* the recovery of the theorem above selects its header exactly as readValidMeta's selection (Model/Meta.v
   [choose], the function the C16 theorems are about and that is validated against the implementation) *)
Theorem C01_recovery_uses_the_chosen_header : forall fuel (d : cdisk) pg0 pg1 a t,
  d 0 = Some pg0 -> d 1 = Some pg1 -> choose pg0 pg1 = SelOk a t ->
  mon_recover fuel d = option_map fst (chase_full fuel d (decode_header (if a =? 0 then pg0 else pg1))).
Proof. exact recover_uses_chosen_header. Qed.
Theorem C01_recovery_fails_without_valid_header : forall fuel (d : cdisk) pg0 pg1,
  d 0 = Some pg0 -> d 1 = Some pg1 -> choose pg0 pg1 = SelErr -> mon_recover fuel d = None.
Proof. exact recover_fails_without_valid_header. Qed.
Print Assumptions C01_recovery_uses_the_chosen_header.

(* ---- the writer's scheduling queue (write.go Schedule / Sync / nextCommand): the commit protocol relies on sync = barrier ----
   For every interleaving of Schedule / Sync calls with nextCommand calls of ANY buffer sizes: what the goroutine has
   been handed so far, followed by what the queue still holds, is the sequence of writes and syncs in the order they
   were scheduled. A sync is executed after all writes scheduled before it and before every write scheduled later. *)
From VF Require Import Writer WriterProofs WriterQueue WriterQueueProofs WriterComposeProofs.
Theorem C01_writer_queue_preserves_schedule : forall (A : Type) (ops : list (qop A)) (s : wq A),
  Inv s -> buffers_ok ops ->
  let '(s', out, inp) := wq_run s ops in
  out ++ remaining s' = remaining s ++ inp /\ Inv s'.
Proof. intros A ops s I _. exact (run_preserves_schedule ops s I). Qed.
Print Assumptions C01_writer_queue_preserves_schedule.

Theorem C01_writer_executes_the_schedule : forall (A : Type) (ops : list (qop A)),
  buffers_ok ops ->
  let '(s', out, inp) := wq_run wq_init ops in
  out ++ remaining s' = inp /\ (remaining s' = [] -> out = inp).
Proof. intros A. exact executed_is_schedule. Qed.
Print Assumptions C01_writer_executes_the_schedule.

(* queue + batch execution (stable sort inside a batch): at every moment the executed events are a prefix of the
   schedule and the disk holds, for every page, the last write of that prefix *)
Theorem C01_writer_executes_a_prefix_of_the_schedule : forall ops : list (qop wmsg),
  buffers_ok ops ->
  let '(s', out, inp) := wq_run wq_init ops in
  (exists rest, inp = out ++ rest) /\
  (forall d p, run_cmds d (wq_cmds wq_init ops) p = spec_disk d (writes_of out) p) /\
  (remaining s' = [] -> out = inp).
Proof. exact writer_executes_a_prefix_of_the_schedule. Qed.
Print Assumptions C01_writer_executes_a_prefix_of_the_schedule.

(* false for the variant that tests "sync due" against all queued writes and clamps to the buffer afterwards *)
Theorem C01_late_clamp_refuted : exists ops,
  buffers_ok ops /\
  let '(s', out, inp) := wq_run_late wq_init ops in
  remaining s' = [] /\ out <> inp /\ inp = [EW 1; EW 2; EW 3; ES]%nat /\ out = [EW 1; EW 2; ES; EW 3]%nat.
Proof. exact late_clamp_refuted. Qed.
Print Assumptions C01_late_clamp_refuted.

(* ---- the fall-back header stays usable: how far a commit may truncate a bounded file (tx.go checkTruncate) ----
   When a commit truncates the file, the new size covers what the new commit needs AND what the previous commit - the
   header that is selected when the new one is damaged or lost - needs. *)
From VF Require Import Truncate TruncateProofs.
Theorem C01_truncate_keeps_both_commits : forall lastEnd sz mmapSz maxSz pageSize e,
  check_truncate lastEnd sz mmapSz maxSz pageSize = (e, true) ->
  (mmapSz <= e /\ lastEnd * pageSize <= e /\ maxSz <= e /\ e < sz /\ 0 < maxSz)%Z.
Proof. exact check_truncate_spec. Qed.
Print Assumptions C01_truncate_keeps_both_commits.

Theorem C01_truncate_clamped_refuted : exists lastEnd sz mmapSz maxSz pageSize e,
  check_truncate_clamped lastEnd sz mmapSz maxSz pageSize = (e, true) /\ (e < lastEnd * pageSize)%Z.
Proof. exact check_truncate_clamped_refuted. Qed.
Print Assumptions C01_truncate_clamped_refuted.

(* ---- the commit protocol itself (Model/Commit.v = tx.go tryCommitChangesToFile / syncNewMeta: page writes of the
   transaction, pages of the new overwrite mapping and of the new free lists (Model/Pages.v), sync, header page into
   the inactive slot (Model/Meta.v), sync, return). For EVERY monitor state between two commits (any pending page
   writes of earlier flushes) and EVERY commit whose page writes stay off the header pages and off the pages the
   committed state can reach (what the allocator theorems of C04 give), whose new chains get fresh distinct page ids
   and whose header names them and carries the next transaction id: the write-discipline monitor ACCEPTS the whole
   sequence - the hypothesis of the crash theorem holds for the model's commits, it is not only sampled on traces -
   and the state it protects afterwards is exactly what the commit serialised: mapping, page ids of both chains, both
   free lists (normalised as readFreeList does), root, transaction id, end markers, meta-area size, maximum size. ---- *)
From VF Require Import Commit CommitProofs Pages Region Meta MetaProofs PagesProofs.
Theorem C01_commit_follows_the_write_discipline : forall fuel (m : mon) ps sched walIds mapping flIds metaL dataL h evs,
  infl m = None ->
  commit_events ps (negb (act m)) sched walIds mapping flIds metaL dataL h = Some evs ->
  Forall (fun w => 2 <= fst w /\ ~ In (fst w) (cfp m)) sched ->
  Forall (fun id => 2 <= id < 2^64 /\ ~ In id (cfp m)) (walIds ++ flIds) ->
  NoDup (walIds ++ flIds) ->
  (forall w, In w (pend m) -> ~ In (fst w) (walIds ++ flIds)) ->
  (forall w, In w sched -> ~ In (fst w) (walIds ++ flIds)) ->
  header_ok h -> h_magic h = magic -> h_version h = version -> h_txid h = nxt_txid (txid m) ->
  h_wal h = hd 0 walIds -> h_freelist h = hd 0 flIds ->
  (walIds = [] -> mapping = []) -> (flIds = [] -> metaL = [] /\ dataL = []) ->
  Forall (fun kv => 0 <= fst kv < 2^56 /\ 0 <= snd kv < 2^56) mapping -> Z.of_nat (length mapping) < 2^32 ->
  Forall valid_region metaL -> Forall valid_region dataL -> Z.of_nat (length metaL + length dataL) < 2^32 ->
  (length walIds <= fuel)%nat -> (length flIds <= fuel)%nat ->
  exists m', mon_run fuel m evs = Some m' /\
    act m' = negb (act m) /\ txid m' = nxt_txid (txid m) /\ infl m' = None /\ pend m' = [] /\
    let st := fst (cst m') in
    r_wal st = mapping /\ r_walpages st = walIds /\ r_flpages st = flIds /\
    r_metaFree st = optimize metaL /\ r_dataFree st = optimize dataL /\
    r_root st = h_root h /\ r_txid st = h_txid h /\ r_dataEnd st = h_dataEnd h /\ r_metaEnd st = h_metaEnd h /\
    r_metaTotal st = h_metaTotal h /\ r_maxSize st = h_maxSize h.
Proof. intros * Hinfl Hev Hsched Hids Hnd _ _. exact (commit_accepted _ _ _ _ _ _ _ _ _ _ _ Hinfl Hev Hsched Hids Hnd). Qed.
Print Assumptions C01_commit_follows_the_write_discipline.

(* ... composed with the crash theorem: stop the model's commit after ANY number of its disk events, let ANY subset of
   the page writes issued since the last completed sync reach the disk (a torn header counts as invalid): recovery
   returns the state of the previous commit - unchanged until the very last event - or, only once the new header has
   been issued, the complete state of this commit. *)
Theorem C01_commit_is_atomic_at_every_crash_point : forall fuel (m m' : mon) evs,
  MInv fuel m -> mon_run fuel m evs = Some m' ->
  forall pre post, evs = pre ++ post ->
  exists m1, mon_run fuel m pre = Some m1 /\
    (Forall (fun e => e <> CommitOk) pre -> cst m1 = cst m) /\
    forall ws, crashsub cell header hdr_of (pend m1) ws ->
      mon_recover fuel (apply cell ws (dd m1)) = Some (cst m1) \/
      (exists c h v fp, infl m1 = Some (c, h, v, fp) /\ mon_recover fuel (apply cell ws (dd m1)) = Some v).
Proof.
  intros fuel m m' evs Hinv Hrun pre post ->.
  destruct (mon_run_app fuel pre m post m' Hrun) as (m1 & H1 & _).
  exists m1. split; [exact H1|]. split.
  - intros Hne. exact (run_keeps_committed _ _ _ _ _ _ pre m m1 Hne H1).
  - intros ws Hs. exact (crash_atomic_concrete fuel pre m m1 Hinv H1 ws Hs).
Qed.
Print Assumptions C01_commit_is_atomic_at_every_crash_point.

(* non-vacuity: a new file (64-byte pages, header pages with transaction ids 1 and 0, nothing else); a commit that writes
   data page 2, a free-list page 3 holding the free region [4,6), and the header with transaction id 2 into slot 1: the
   monitor accepts the 6 events, afterwards it protects the new state (pages 3, 2) *)
Definition C01_ex_header (tx root fl de me mt : Z) : header :=
  {| h_magic := magic; h_version := version; h_pageSize := 64; h_maxSize := 0; h_flags := 0; h_root := root; h_txid := tx;
     h_freelist := fl; h_wal := 0; h_dataEnd := de; h_metaEnd := me; h_metaTotal := mt; h_checksum := 0 |}.
Definition C01_ex_disk : cdisk := fun p =>
  if p =? 0 then Some (encode_header (C01_ex_header 1 0 0 2 2 0))
  else if p =? 1 then Some (encode_header (C01_ex_header 0 0 0 2 2 0)) else None.
Example C01_ex_commit : exists m evs m',
  mon_init 10 C01_ex_disk = Some m /\ act m = false /\ txid m = 1 /\
  commit_events 64 (negb (act m)) [(2, [7; 7; 7])] [] [] [3] [] [{| rid := 4; rcount := 2 |}] (C01_ex_header 2 2 3 6 6 1) = Some evs /\
  length evs = 6%nat /\ mon_run 10 m evs = Some m' /\
  act m' = true /\ txid m' = 2 /\ r_dataFree (fst (cst m')) = [{| rid := 4; rcount := 2 |}] /\ r_root (fst (cst m')) = 2 /\ cfp m' = [3; 2; 3].
Proof.
  eexists _, _, _.
  split; [vm_compute; reflexivity|]. do 2 (split; [reflexivity|]).
  split; [vm_compute; reflexivity|]. split; [reflexivity|].
  split; [vm_compute; reflexivity|]. repeat split.
Qed.
