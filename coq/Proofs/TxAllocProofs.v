(* Whole data transactions over the allocator: an invariant over every sequence of Tx.Alloc /
   Tx.Free steps, and the exactness of the rollback at its end. *)
From VF Require Import Region Freelist Alloc RegionProofs AllocProofs.
From Coq Require Import Lia ZifyBool.

Theorem same_set_count l1 l2 lo : wfl lo l1 -> wfl lo l2 ->
  (forall id, inl id l1 <-> inl id l2) -> count_pages l1 = count_pages l2.
Proof.
  intros W1 W2 H. destruct (wfl_ids _ _ W1) as [S1 ->], (wfl_ids _ _ W2) as [S2 ->].
  rewrite (sorted_from_ext _ _ lo S1 S2); [reflexivity|]. intros x. rewrite !regions_ids_in. apply H.
Qed.

Lemma area_rollback_untouched ar x : t_allocated x = [] -> wff 2 (a_free ar) -> below (a_free ar) (t_end x) ->
  area_rollback ar x = {| a_end := t_end x; a_free := a_free ar |}.
Proof.
  intros Hx Wf Hb. unfold area_rollback. rewrite Hx. cbn [filter].
  change (fl_add_regions ?f (ids_regions [])) with f.
  destruct (t_end x <? a_end ar); [|reflexivity].
  rewrite (fl_remove_region_above _ 2 _ Wf); [reflexivity | exact Hb].
Qed.

Definition same_static (a a' : allocst) : Prop :=
  maxPages a' = maxPages a /\ pageSize a' = pageSize a /\ a_free (meta a') = a_free (meta a) /\
  metaTotal a' = metaTotal a /\ flRoot a' = flRoot a /\ flPages a' = flPages a.

(* Tx.Alloc/AllocN and Tx.Free in any order. Tx.Free is only called for a page that is in use (the page
   object of a page freed before refuses a second Free), i.e. one that is not in the free list. *)
Inductive dreach (a0 : allocst) (withOvf : bool) (growPct : Z) : allocst -> txst -> Prop :=
| dr_init : dreach a0 withOvf growPct a0 (make_tx a0 withOvf growPct)
| dr_alloc a t n regs cnt a' t' :
    dreach a0 withOvf growPct a t -> 0 < n < 2^32 ->
    data_alloc_regions a t n = (regs, cnt, a', t') -> dreach a0 withOvf growPct a' t'
| dr_free a t id a' t' :
    dreach a0 withOvf growPct a t -> ~ inl id (fregions (a_free (data a))) ->
    data_free a t id = Some (a', t') -> dreach a0 withOvf growPct a' t'.

Record TxInv (a0 a : allocst) (t : txst) : Prop := {
  ti_data : DataInv a;
  ti_end : t_end (tdata t) = a_end (data a0);
  ti_sorted : sorted_from 2 (t_allocated (tdata t));
  ti_grow : a_end (data a0) <= a_end (data a);
  ti_dis : forall id, In id (t_allocated (tdata t)) -> id < a_end (data a0) -> ~ inl id (fregions (a_free (data a)));
  ti_set : forall id, id < a_end (data a0) ->
             (inl id (fregions (a_free (data a0))) <-> inl id (fregions (a_free (data a))) \/ In id (t_allocated (tdata t)));
  ti_new : forall id, In id (t_new (tdata t)) -> a_end (data a0) <= id;
  ti_static : same_static a0 a;
  ti_mv : moveToMeta t = [];
  ti_tmeta : tmeta t = {| t_end := a_end (meta a0); t_allocated := []; t_new := []; t_freed := [] |};
  ti_ovf : st_ovf_alloc t = 0 }.

Lemma same_static_trans a b c : same_static a b -> same_static b c -> same_static a c.
Proof. unfold same_static. intros (A1&A2&A3&A4&A5&A6) (B1&B2&B3&B4&B5&B6). repeat split; congruence. Qed.

Theorem dreach_inv a0 w p a t : DataInv a0 -> dreach a0 w p a t -> TxInv a0 a t.
Proof.
  intros H0 R. induction R as [|a t n regs cnt a' t' R IH Hn E | a t id a' t' R IH Hnf E].
  - constructor; cbn; [exact H0 | reflexivity | constructor | lia | tauto | tauto | tauto | repeat split | reflexivity..].
  - destruct IH as [ID IE IS IG IDis ISet INew ISt IMv ITm IOv].
    destruct (data_alloc_regions_take a t n regs cnt a' t' ID ltac:(lia) E)
      as [(_ & _ & _ & -> & ->)|(_ & _ & ra & rn & _ & T & Hrn & _ & Hmf & _)]; [constructor; assumption|].
    destruct (te_tx T) as (X1 & X2 & _ & _ & X5 & _). destruct (te_static T) as (Y1 & Y2 & Y3 & Y4). pose proof (te_end T).
    constructor; rewrite ?(te_alloc T), ?(te_new T); try setoid_rewrite add_regions_in; try congruence.
    + exact (te_data T).
    + apply add_regions_sorted; [|exact IS]. intros id H1. apply (wfl_lower _ _ _ (te_wf T)), inl_app. left. exact H1.
    + lia.
    + intros id [Hin|Hin] Hlt Hf; [apply (te_gone T (id:=id)); [apply inl_app; left; exact Hin | exact Hf]|].
      exact (IDis id Hin Hlt (te_sub T Hf)).
    + intros id Hlt. rewrite (ISet id Hlt). split.
      * intros [Hf|Hal]; [|auto]. destruct (te_cover T Hf) as [Hc|Hc]; [|auto].
        apply inl_app in Hc as [Hc|Hc]; [auto | apply Hrn in Hc; lia].
      * intros [Hf|[Hr|Hal]]; [left; exact (te_sub T Hf) | left; exact (te_ra T Hr) | auto].
    + intros id [Hin|Hin]; [apply Hrn in Hin; lia | exact (INew _ Hin)].
    + destruct ISt as (A1&A2&A3&A4&A5&A6). pose proof (te_total T) as Ht. rewrite count_pages_nil in Ht.
      repeat split; try congruence. lia.
    + rewrite (te_moved T), IMv. reflexivity.
  - destruct IH as [ID IE IS IG IDis ISet INew ISt IMv ITm IOv].
    destruct (set_mem id (t_new (tdata t))) eqn:Enew.
    + assert (Hidnew: a_end (data a0) <= id) by (apply INew, set_mem_in, Enew).
      destruct (data_free_fresh_eff a t id a' t' ID Enew Hnf E) as (-> & St & _ & W' & He' & Hmin & Hcut & _).
      assert (Hin: forall x, x < a_end (data a0) -> (inl x (Dset a') <-> inl x (Dset a))).
      { intros x Hx. rewrite Hcut. split; [intros [[->|H] _]; [lia | exact H] | intros H; split; [right; exact H | lia]]. }
      constructor; cbn [tdata tmeta moveToMeta st_ovf_alloc tx_stats]; try assumption.
      * constructor; [exact W' | intros x Hx; apply Hcut, Hx | lia].
      * lia.
      * intros x Hal Hlt Hf. apply (Hin x Hlt) in Hf. exact (IDis x Hal Hlt Hf).
      * intros x Hlt. rewrite (ISet x Hlt), (Hin x Hlt). reflexivity.
      * exact (same_static_trans _ _ _ ISt St).
      * lia.
    + destruct (data_free_committed_eq a t id a' t' Enew E) as (_ & -> & ->).
      constructor; cbn [tdata tmeta moveToMeta st_ovf_alloc tx_with tx_stats ta_freed t_end t_allocated t_new]; auto; lia.
Qed.

Record MetaInv (a : allocst) : Prop := {
  mi_wf : wff 2 (a_free (meta a));
  mi_below : below (a_free (meta a)) (a_end (meta a)) }.

(* C07 for transactions that only allocate and free data pages. The size hypothesis is the source's own: the
   region that allocArea.rollback removes past the restored end marker has a uint32 count. *)
Theorem rollback_exact a0 w p a t :
  DataInv a0 -> MetaInv a0 -> dreach a0 w p a t -> a_end (data a) - a_end (data a0) < 2^32 ->
  let r := rollback a t in
  maxPages r = maxPages a0 /\ pageSize r = pageSize a0 /\ meta r = meta a0 /\ metaTotal r = metaTotal a0 /\
  flRoot r = flRoot a0 /\ flPages r = flPages a0 /\
  a_end (data r) = a_end (data a0) /\ wff 2 (a_free (data r)) /\
  (forall id, inl id (fregions (a_free (data r))) <-> inl id (fregions (a_free (data a0)))) /\
  avail (a_free (data r)) = avail (a_free (data a0)).
Proof.
  intros H0 [MW MB] R Hsmall.
  destruct (dreach_inv a0 w p a t H0 R) as [[Wf Hb He] IE IS IG IDis ISet INew ISt IMv ITm IOv].
  destruct ISt as (S1 & S2 & S3 & S4 & S5 & S6). destruct H0 as [[W0l W0a] Hb0 He0].
  unfold rollback. rewrite IMv, ITm, IOv. cbn [fold_left].
  cbn [maxPages pageSize meta metaTotal flRoot flPages data].
  (* the meta area: nothing was allocated in it *)
  rewrite area_rollback_untouched by (rewrite ?S3; auto). cbn [a_end a_free t_end].
  split; [exact S1|]. split; [exact S2|].
  split; [rewrite S3; destruct (meta a0); reflexivity|].
  split; [lia|]. split; [exact S5|]. split; [exact S6|].
  set (td := {| t_end := t_end (tdata t); t_allocated := t_allocated (tdata t); t_new := t_new (tdata t); t_freed := t_freed (tdata t) |}).
  destruct (area_rollback_spec (data a) td Wf Hb) as (E1 & [W2l W2a] & Hset & _); cbn [t_end t_allocated td] in *.
  - exact IS.
  - lia.
  - lia.
  - intros id Hin Hlt. apply IDis; [exact Hin | lia].
  - assert (Hsame: forall id, inl id (fregions (a_free (area_rollback (data a) td))) <-> inl id (fregions (a_free (data a0)))).
    { intros id. rewrite Hset, IE. split.
      - intros [Hlt H]. apply (ISet id Hlt). exact H.
      - intros H. pose proof (Hb0 _ H) as Hlt. split; [exact Hlt|]. apply (ISet id Hlt). exact H. }
    split; [congruence|]. split; [split; assumption|]. split; [exact Hsame|].
    rewrite W2a, W0a. exact (same_set_count _ _ 2 W2l W0l Hsame).
Qed.
