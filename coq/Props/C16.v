(* C16 -- A damaged header never wins: open falls back to the intact one or fails cleanly.
   Property theorems only; proofs live in Proofs/. *)
From VF Require Import Meta MetaProofs Fnv BytesProofs Pages PagesProofs.

(* total description of the selection among two header slots *)
Theorem C16_select_spec : forall s0 s1,
  choose s0 s1 =
  match valid_slot s0, valid_slot s1 with
  | false, false => SelErr
  | true, false => SelOk 0 (txid_of s0)
  | false, true => SelOk 1 (txid_of s1)
  | true, true =>
      if txid_newer (txid_of s0) (txid_of s1) then SelOk 0 (txid_of s0) else SelOk 1 (txid_of s1)
  end.
Proof. exact choose_spec. Qed.
Print Assumptions C16_select_spec.

Theorem C16_never_selects_invalid : forall s0 s1 a t,
  choose s0 s1 = SelOk a t ->
  (a = 0 /\ valid_slot s0 = true /\ t = txid_of s0) \/ (a = 1 /\ valid_slot s1 = true /\ t = txid_of s1).
Proof. exact choose_never_invalid. Qed.
Print Assumptions C16_never_selects_invalid.

Theorem C16_fallback_to_intact_1 : forall s0 s1,
  valid_slot s0 = false -> valid_slot s1 = true -> choose s0 s1 = SelOk 1 (txid_of s1).
Proof. exact choose_fallback_1. Qed.
Theorem C16_fallback_to_intact_0 : forall s0 s1,
  valid_slot s0 = true -> valid_slot s1 = false -> choose s0 s1 = SelOk 0 (txid_of s0).
Proof. exact choose_fallback_0. Qed.
Theorem C16_both_damaged_error : forall s0 s1,
  valid_slot s0 = false -> valid_slot s1 = false -> choose s0 s1 = SelErr.
Proof. exact choose_both_invalid. Qed.
Print Assumptions C16_fallback_to_intact_1.

Theorem C16_newer_wins_1 : forall s0 s1 k,
  valid_slot s0 = true -> valid_slot s1 = true ->
  0 <= txid_of s0 < 2^64 -> 0 < k < 2^63 -> txid_of s1 = (txid_of s0 + k) mod 2^64 ->
  choose s0 s1 = SelOk 1 (txid_of s1).
Proof. exact choose_newer_wins_1. Qed.
Theorem C16_newer_wins_0 : forall s0 s1 k,
  valid_slot s0 = true -> valid_slot s1 = true ->
  0 <= txid_of s1 < 2^64 -> 0 < k < 2^63 -> txid_of s0 = (txid_of s1 + k) mod 2^64 ->
  choose s0 s1 = SelOk 0 (txid_of s0).
Proof. exact choose_newer_wins_0. Qed.
Print Assumptions C16_newer_wins_1.

(* Open never panics on header contents: the outcome type of the reader has only the constructors
   SelErr and SelOk (the source had a panic for equal txids, D5, repaired); equal txids select slot 1 *)
Theorem C16_equal_txid_no_panic : forall s0 s1,
  valid_slot s0 = true -> valid_slot s1 = true -> txid_of s0 = txid_of s1 -> choose s0 s1 = SelOk 1 (txid_of s1).
Proof. exact choose_equal_txid. Qed.
Print Assumptions C16_equal_txid_no_panic.

(* whole reader, over an arbitrary file (abstract reader rd): a selected header is always a valid one *)
Theorem C16_reader_never_selects_invalid : forall rd a t,
  read_valid_meta_with rd = Some (SelOk a t) ->
  exists off s, (a = 0 \/ a = 1) /\ rd off = RdOk s /\ valid_slot s = true /\ t = txid_of s.
Proof. exact read_with_never_invalid. Qed.
Print Assumptions C16_reader_never_selects_invalid.

(* slot 0 damaged in any way -- including its page-size field, which locates slot 1 (D11, repaired):
   the intact slot 1 at page size minPageSize * 2^k is found and selected *)
Theorem C16_damaged_slot0_falls_back : forall rd s0 s1 k,
  rd 0 = RdOk s0 -> valid_slot s0 = false ->
  (k <= 21)%nat ->
  (forall j, (j < k)%nat -> exists s, rd (minPageSize * 2 ^ Z.of_nat j) = RdOk s /\ good_at s (minPageSize * 2 ^ Z.of_nat j) = false) ->
  rd (minPageSize * 2 ^ Z.of_nat k) = RdOk s1 -> good_at s1 (minPageSize * 2 ^ Z.of_nat k) = true ->
  read_valid_meta_with rd = Some (SelOk 1 (txid_of s1)).
Proof. exact damaged_slot0_falls_back. Qed.
Print Assumptions C16_damaged_slot0_falls_back.

Theorem C16_damaged_slot1_falls_back : forall rd s0 s1,
  rd 0 = RdOk s0 -> valid_slot s0 = true ->
  rd (h_pageSize (decode_header s0)) = RdOk s1 -> valid_slot s1 = false ->
  read_valid_meta_with rd = Some (SelOk 0 (txid_of s0)).
Proof. exact intact_slot0_damaged_slot1. Qed.

Theorem C16_both_damaged_reader_error : forall rd s0,
  rd 0 = RdOk s0 -> valid_slot s0 = false ->
  (forall off s, rd off = RdOk s -> valid_slot s = false) ->
  (forall off, rd off <> RdMissing) ->
  read_valid_meta_with rd = Some SelErr.
Proof. exact both_damaged_error. Qed.
Print Assumptions C16_both_damaged_reader_error.

(* every single-byte (hence every single-bit) corruption of every valid header is detected *)
Theorem C16_single_byte_damage : forall pre b b' post,
  bytes (pre ++ b :: post) -> 0 <= b' < 256 -> b <> b' ->
  length (pre ++ b :: post) = (csum_off + 4)%nat ->
  valid_slot (pre ++ b :: post) = true -> valid_slot (pre ++ b' :: post) = false.
Proof. exact single_byte_damage. Qed.
Print Assumptions C16_single_byte_damage.

Theorem C16_zero_page_invalid : forall k, valid_slot (zeros k) = false.
Proof. intros k. apply zero_page_invalid. discriminate. Qed.
Print Assumptions C16_zero_page_invalid.

Theorem C16_finalized_header_valid : forall h, header_ok h -> h_magic h = magic -> h_version h = version ->
  valid_slot (encode_header h) = true.
Proof. exact finalized_header_valid. Qed.
Print Assumptions C16_finalized_header_valid.

(* non-vacuity: a concrete valid header, and a damaged copy *)
Definition ex_hdr : header :=
  {| h_magic := magic; h_version := version; h_pageSize := 1024; h_maxSize := 65536; h_flags := 0;
     h_root := 7; h_txid := 42; h_freelist := 5; h_wal := 0; h_dataEnd := 9; h_metaEnd := 9;
     h_metaTotal := 3; h_checksum := 0 |}.
Example C16_ex_valid : valid_slot (encode_header ex_hdr) = true /\ length (encode_header ex_hdr) = (csum_off + 4)%nat.
Proof.
  split; [apply finalized_header_valid; [constructor; (split; [discriminate | reflexivity]) | reflexivity..] | apply encode_header_length].
Qed.
Example C16_ex_damaged :
  valid_slot (firstn 33 (encode_header ex_hdr) ++ 43 :: skipn 34 (encode_header ex_hdr)) = false.
Proof. vm_compute. reflexivity. Qed.

(* non-vacuity of the fall-back theorem: a 3-page file whose slot 0 has a flipped bit in the page-size field *)
Definition ex_file : list Z :=
  let h := encode_header ex_hdr in
  (firstn 9 h ++ 0 :: skipn 10 h) ++ zeros (1024 - 84) ++ h ++ zeros (2048 - 84).
Example C16_ex_fallback : read_valid_meta ex_file = SelOk 1 42.
Proof. vm_compute. reflexivity. Qed.

(* ---- the pages an intact header refers to (D19) ----
   Open never panics: the readers of the free-list and mapping pages answer with an error when the entry count
   of a page is beyond the page, and the guard never changes the result on a page that can be decoded. *)
Theorem C16_entry_count_beyond_page_is_an_error : forall cnt p, Z.of_nat (length p) < cnt ->
  decode_entries_z cnt p = None /\ decode_wal_entries_z cnt p = None.
Proof. exact count_beyond_page_is_error. Qed.
Print Assumptions C16_entry_count_beyond_page_is_an_error.

Theorem C16_entry_count_guard_is_exact : forall cnt p,
  decode_entries_z cnt p = decode_entries (Z.to_nat cnt) p /\
  decode_wal_entries_z cnt p = decode_wal_entries (Z.to_nat cnt) p.
Proof. intros cnt p. split; [apply decode_entries_z_eq | apply decode_wal_entries_z_eq]. Qed.
Print Assumptions C16_entry_count_guard_is_exact.

(* ---- the fall-back header stays usable: how far a commit may truncate a bounded file (tx.go checkTruncate) ----
   When a commit truncates the file, the new size covers what the new commit needs AND what the previous commit - the
   header that is selected when the new one is damaged or lost - needs. *)
From VF Require Import Truncate TruncateProofs.
Theorem C16_truncate_keeps_both_commits : forall lastEnd sz mmapSz maxSz pageSize e,
  check_truncate lastEnd sz mmapSz maxSz pageSize = (e, true) ->
  (mmapSz <= e /\ lastEnd * pageSize <= e /\ maxSz <= e /\ e < sz /\ 0 < maxSz)%Z.
Proof. exact check_truncate_spec. Qed.
Print Assumptions C16_truncate_keeps_both_commits.

Theorem C16_truncate_clamped_refuted : exists lastEnd sz mmapSz maxSz pageSize e,
  check_truncate_clamped lastEnd sz mmapSz maxSz pageSize = (e, true) /\ (e < lastEnd * pageSize)%Z.
Proof. exact check_truncate_clamped_refuted. Qed.
Print Assumptions C16_truncate_clamped_refuted.

(* ... and how far a ROLLBACK may truncate it (tx.go rollbackChanges, fix D33): every page below the end of the state of
   the other header page stays inside the file; the code before the fix cut the fall-back state off *)
Theorem C16_rollback_keeps_the_other_headers_pages : forall metaEnd dataEnd otherEnd sz ps mp n,
  0 < ps -> rollback_truncate metaEnd dataEnd otherEnd sz ps mp = Some n ->
  forall id, 0 <= id < otherEnd -> (id + 1) * ps <= n.
Proof. intros me de oe sz ps mp n Hps H. exact (proj2 (proj2 (proj2 (rollback_truncate_spec _ _ _ _ _ _ _ Hps H)))). Qed.
Print Assumptions C16_rollback_keeps_the_other_headers_pages.
Theorem C16_rollback_before_the_fix_refuted : exists metaEnd dataEnd otherEnd sz ps mp n id,
  rollback_truncate_v1 metaEnd dataEnd sz ps mp = Some n /\ 0 <= id < otherEnd /\ n < (id + 1) * ps.
Proof. exact rollback_truncate_v1_refuted. Qed.

