From VF Require Import PageBuf BytesProofs.
From Coq Require Import Lia.

(* The buffer state machine refines the obvious specification: a page has a logical content
   (None = freshly allocated, nothing written yet); a full SetBytes replaces it, a partial SetBytes
   overwrites a prefix (of zeroes on a fresh page), Load keeps it (zeroes on a fresh page), an in-place
   modification after Load splices, Bytes returns it. *)

Definition wf (ps : nat) (p : pagest) : Prop :=
  (f_new (pg_flags p) = false -> length (pg_disk p) = ps) /\
  (forall b, pg_bytes p = Some b -> length b = ps) /\
  (f_cached (pg_flags p) = true -> pg_bytes p <> None) /\
  (f_dirty (pg_flags p) = true -> pg_bytes p <> None).

Definition lcontent (p : pagest) : option (list Z) :=
  match pg_bytes p with
  | Some b => Some b
  | None => if f_new (pg_flags p) then None else Some (pg_disk p)
  end.

Definition base (ps : nat) (c : option (list Z)) : list Z :=
  match c with Some b => b | None => zeros ps end.

Lemma wf_buffered ps f b dk : (f_new f = false -> length dk = ps) -> length b = ps ->
  wf ps {| pg_flags := f; pg_bytes := Some b; pg_disk := dk |}.
Proof. intros Hd Hl. split; [exact Hd|]. split; [intros b0 [= <-]; exact Hl | split; discriminate]. Qed.

Lemma base_length ps p : wf ps p -> length (base ps (lcontent p)) = ps.
Proof.
  intros (Hd & Hb & _). unfold lcontent. destruct (pg_bytes p) as [b|]; [exact (Hb b eq_refl)|].
  destruct (f_new (pg_flags p)); [apply zeros_length | exact (Hd eq_refl)].
Qed.

Lemma load_bytes_spec ps p : wf ps p -> exists f,
  load_bytes ps p = {| pg_flags := f; pg_bytes := Some (base ps (lcontent p)); pg_disk := pg_disk p |} /\
  f_new f = f_new (pg_flags p).
Proof.
  intros (_ & _ & Hc & Hy). unfold load_bytes, lcontent. destruct p as [[n fr fl c d] [b|] dk]; cbn in *.
  - destruct c, n, d; eexists; split; reflexivity.
  - destruct c; [destruct Hc; reflexivity|]. destruct n; [eexists; split; reflexivity|].
    destruct d; [destruct Hy; reflexivity | eexists; split; reflexivity].
Qed.

Lemma can_write_flags p f' : f_freed f' = f_freed (pg_flags p) -> f_flushed f' = f_flushed (pg_flags p) ->
  can_write (set_flags p f') = can_write p.
Proof. intros H1 H2. unfold can_write. cbn. now rewrite H1, H2. Qed.

Theorem set_bytes_spec ps p c p' : wf ps p -> page_set_bytes ps p c = POk p' ->
  wf ps p' /\
  lcontent p' = Some (if (length c <? ps)%nat then c ++ skipn (length c) (base ps (lcontent p)) else c) /\
  f_dirty (pg_flags p') = true.
Proof.
  intros Hwf. unfold page_set_bytes. destruct (can_write p); [|discriminate]. cbn [negb].
  destruct (ps <? length c)%nat eqn:Elong; [discriminate|]. apply Nat.ltb_ge in Elong.
  destruct (length c <? ps)%nat eqn:Eshort; intros [= <-].
  - destruct (load_bytes_spec ps p Hwf) as (f & -> & Hn). cbn. split; [|split; reflexivity].
    apply wf_buffered; [cbn; rewrite Hn; exact (proj1 Hwf)|].
    rewrite app_length, skipn_length, (base_length ps p Hwf). apply Nat.ltb_lt in Eshort. lia.
  - split; [|split; reflexivity]. apply wf_buffered; [exact (proj1 Hwf)|]. apply Nat.ltb_ge in Eshort. lia.
Qed.

Theorem load_spec ps p p' : wf ps p -> page_load ps p = POk p' ->
  wf ps p' /\ lcontent p' = Some (base ps (lcontent p)).
Proof.
  intros Hwf. unfold page_load. destruct (can_write p); [|discriminate]. intros [= <-].
  destruct (load_bytes_spec ps p Hwf) as (f & -> & Hn). split; [|reflexivity].
  apply wf_buffered; [rewrite Hn; exact (proj1 Hwf) | exact (base_length ps p Hwf)].
Qed.

(* the repair of D35 shows in wf ps p': the dirty page has a buffer that can be written back *)
Theorem mark_dirty_spec ps p p' : wf ps p -> page_mark_dirty ps p = POk p' ->
  wf ps p' /\ lcontent p' = Some (base ps (lcontent p)) /\ f_dirty (pg_flags p') = true.
Proof.
  intros Hwf. unfold page_mark_dirty. destruct (can_write p); [|discriminate]. intros [= <-].
  pose proof (base_length ps p Hwf) as Hl. destruct (pg_bytes p) as [b|] eqn:Eb.
  - unfold lcontent in Hl |- *. unfold set_flags. cbn. rewrite Eb in Hl |- *.
    split; [|split; reflexivity]. apply wf_buffered; [exact (proj1 Hwf) | exact Hl].
  - destruct (load_bytes_spec ps p Hwf) as (f & -> & Hn). cbn. split; [|split; reflexivity].
    apply wf_buffered; [cbn; rewrite Hn; exact (proj1 Hwf) | exact Hl].
Qed.

Theorem modify_spec ps p off c p' : wf ps p -> (off + length c <= ps)%nat -> page_modify p off c = POk p' ->
  exists b, pg_bytes p = Some b /\ wf ps p' /\ lcontent p' = Some (splice off c b).
Proof.
  intros (Hd & Hb & _) Hfit. unfold page_modify. destruct (can_write p); [|discriminate].
  destruct (pg_bytes p) as [b|]; [|discriminate]. intros [= <-]. exists b. split; [reflexivity|]. split; [|reflexivity].
  specialize (Hb b eq_refl). apply wf_buffered; [exact Hd|]. rewrite splice_length; lia.
Qed.

Theorem bytes_spec p : page_bytes p = match lcontent p with Some b => POk b | None => PErr EInvalidOp end.
Proof. unfold page_bytes, lcontent. destruct (pg_bytes p); [reflexivity|]. destruct (f_new (pg_flags p)); reflexivity. Qed.

(* can_write p' = false: a second Flush is refused *)
Theorem flush_spec ps p p' w : wf ps p -> page_flush p = POk (p', w) ->
  lcontent p' = lcontent p /\
  (f_dirty (pg_flags p) = true -> w = lcontent p /\ can_write p' = false) /\
  (f_dirty (pg_flags p) = false -> w = None /\ p' = p).
Proof.
  intros (_ & _ & _ & Hy). unfold page_flush. destruct (can_write p); [|discriminate].
  destruct (f_dirty (pg_flags p)); intros [= <- <-]; (split; [reflexivity|]).
  - split; [|discriminate]. intros _. split; [|apply andb_false_r].
    unfold lcontent. destruct (pg_bytes p); [reflexivity | destruct Hy; reflexivity].
  - split; [discriminate | auto].
Qed.

Theorem free_spec p p' : page_free p = POk p' -> f_dirty (pg_flags p) = false /\ lcontent p' = lcontent p /\ can_write p' = false.
Proof.
  unfold page_free. destruct (can_write p); cbn [negb]; [|discriminate].
  destruct (f_dirty (pg_flags p)); [discriminate|]. intros [= <-]. repeat split.
Qed.

Lemma fresh_wf ps : wf ps fresh_page.
Proof. unfold wf, fresh_page; cbn. repeat split; intros; discriminate. Qed.
Lemma existing_wf ps d : length d = ps -> wf ps (existing_page d).
Proof. intros H. unfold wf, existing_page; cbn. repeat split; intros; try discriminate; auto. Qed.

(* D8: on a fresh page a full SetBytes followed by Load keeps the bytes *)
Corollary fresh_setfull_then_load ps c p1 p2 : length c = ps ->
  page_set_bytes ps fresh_page c = POk p1 -> page_load ps p1 = POk p2 -> lcontent p2 = Some c.
Proof.
  intros Hl H1 H2.
  destruct (set_bytes_spec ps _ _ _ (fresh_wf ps) H1) as (Hw1 & Hc1 & _).
  destruct (load_spec ps _ _ Hw1 H2) as (_ & Hc2).
  rewrite Hc2, Hc1. rewrite Hl, Nat.ltb_irrefl. reflexivity.
Qed.

(* the code as found: a dirty page without buffer, whose flush writes nothing *)
Theorem mark_dirty_v1_refuted : exists (p p' p'' : pagest) w,
  wf 4 p /\ page_mark_dirty_v1 p = POk p' /\ f_dirty (pg_flags p') = true /\
  page_flush p' = POk (p'', w) /\ w = None /\ lcontent p = Some [1; 2; 3; 4].
Proof.
  exists (existing_page [1; 2; 3; 4]). eexists. eexists. eexists.
  split; [apply existing_wf; reflexivity|]. repeat split.
Qed.

