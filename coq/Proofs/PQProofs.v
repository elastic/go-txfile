From VF Require Import PQ BytesProofs.
From Coq Require Import Lia ZifyBool ZifyNat.

Lemma hdr_len_4 : hdr_len = 4%nat.
Proof. reflexivity. Qed.

Lemma frame_event_length P pos e : length (frame_event P pos e) = (pad_at P pos + hdr_len + length e)%nat.
Proof. unfold frame_event. rewrite !app_length, zeros_length, le_encode_length. lia. Qed.

Lemma layout_from_cons P pos e rest :
  layout_from P pos (e :: rest) =
  frame_event P pos e ++ layout_from P (pos + pad_at P pos + hdr_len + length e) rest.
Proof. cbn [layout_from]. rewrite frame_event_length, !Nat.add_assoc. reflexivity. Qed.

Lemma frame_at P s p e l : skipn p s = frame_event P p e ++ l ->
  slice (p + pad_at P p) hdr_len s = le_encode hdr_len (Z.of_nat (length e)) /\
  skipn (p + pad_at P p + hdr_len) s = e ++ l.
Proof.
  unfold frame_event. rewrite <- !app_assoc. intros H.
  apply skipn_past in H. rewrite zeros_length in H.
  split; [exact (slice_exact H (le_encode_length _ _))|].
  apply skipn_past in H. rewrite le_encode_length in H. exact H.
Qed.

Lemma parse_layout_at P s : forall evs p post,
  Forall (fun e => Z.of_nat (length e) < 256 ^ Z.of_nat hdr_len) evs ->
  skipn p s = layout_from P p evs ++ post -> parse_from P s p (length evs) = Some evs.
Proof.
  induction evs as [|e rest IH]; intros p post Hsz H; [reflexivity|].
  apply Forall_cons_iff in Hsz as [He Hrest].
  rewrite layout_from_cons, <- app_assoc in H. apply frame_at in H as [Hh Hb].
  cbn [parse_from length].
  rewrite Hh, le_encode_length, Nat.ltb_irrefl, le_decode_encode, Nat2Z.id by lia.
  rewrite (slice_exact Hb eq_refl), Nat.ltb_irrefl, (IH _ post Hrest (skipn_past Hb)). reflexivity.
Qed.

(* C05 at the level of the framing: what pq/reader.go parses is what pq/buffer.go framed, for every payload size P
   and whatever surrounds the frames in the stream *)
Theorem parse_layout P : forall evs pre post,
  Forall (fun e => Z.of_nat (length e) < 256 ^ Z.of_nat hdr_len) evs ->
  parse_from P (pre ++ layout_from P (length pre) evs ++ post) (length pre) (length evs) = Some evs.
Proof. intros evs pre post H. apply (parse_layout_at P _ evs _ post H), skipn_app_exact. Qed.

Corollary queue_delivers_what_was_written P evs :
  Forall (fun e => Z.of_nat (length e) < 256 ^ Z.of_nat hdr_len) evs ->
  parse_from P (layout P evs) 0 (length evs) = Some evs.
Proof. intros H. apply (parse_layout_at P _ evs O [] H). symmetry. apply app_nil_r. Qed.

Lemma layout_from_app P : forall a pos b,
  layout_from P pos (a ++ b) = layout_from P pos a ++ layout_from P (pos + length (layout_from P pos a)) b.
Proof.
  induction a as [|e a IH]; intros pos b; cbn [layout_from app].
  - rewrite Nat.add_0_r. reflexivity.
  - rewrite IH, <- app_assoc, app_length, Nat.add_assoc. reflexivity.
Qed.

(* b: what later flushes append *)
Theorem prefix_stable P a b :
  Forall (fun e => Z.of_nat (length e) < 256 ^ Z.of_nat hdr_len) a ->
  parse_from P (layout P (a ++ b)) 0 (length a) = Some a.
Proof. intros H. exact (parse_layout_at P _ a O _ H (layout_from_app P a O b)). Qed.

Lemma pad_at_lt P pos : (pad_at P pos < hdr_len)%nat.
Proof.
  unfold pad_at. destruct (Nat.ltb_spec (P - pos mod P) hdr_len); [assumption|]. rewrite hdr_len_4. apply Nat.lt_0_succ.
Qed.

Fixpoint total_bytes (evs : list (list Z)) : nat :=
  match evs with [] => 0 | e :: r => length e + total_bytes r end.

(* per event: hdr_len header bytes and at most hdr_len - 1 bytes of padding in front of them *)
Theorem layout_space_bound P : forall evs pos,
  (length (layout_from P pos evs) <= total_bytes evs + (2 * hdr_len - 1) * length evs)%nat.
Proof.
  induction evs as [|e r IH]; intros pos; [cbn; lia|].
  rewrite layout_from_cons, app_length, frame_event_length. cbn [total_bytes length].
  specialize (IH (pos + pad_at P pos + hdr_len + length e)%nat). pose proof (pad_at_lt P pos). lia.
Qed.

Theorem position_roundtrip ps page off : 0 < ps -> 0 < page -> 0 < off <= ps ->
  parse_position ps (write_position ps page off) = (page, off).
Proof.
  intros Hps Hpg Hoff. unfold parse_position, write_position.
  destruct (off =? ps) eqn:E.
  - assert (off = ps) by lia. subst off. rewrite Z.add_0_r, Z.div_mul by lia.
    replace (page * ps - page * ps) with 0 by lia. replace (page =? 0) with false by lia. reflexivity.
  - rewrite Z.div_add_l, (Z.div_small off), Z.add_0_r by lia.
    replace (page * ps + off - page * ps) with off by lia.
    replace (off =? 0) with false by lia. rewrite andb_false_r. reflexivity.
Qed.

Theorem id_less_irrefl a : id_less a a = false.
Proof. unfold id_less. rewrite Z.sub_diag. reflexivity. Qed.

Theorem id_less_succ a k : 0 < k < 2^63 -> id_less a (a + k) = true /\ id_less (a + k) a = false.
Proof. unfold id_less. lia. Qed.

(* asymmetric except for ids exactly 2^63 apart (int64 minimum) *)
Theorem id_less_asym a b : (a - b) mod 2^64 <> 2^63 -> id_less a b = true -> id_less b a = false.
Proof. unfold id_less. lia. Qed.

Definition aq_ok (q : aq) : Prop := (q_acked q <= length (q_flushed q))%nat.

Lemma aq_step_ok q o : aq_ok q -> aq_ok (aq_step q o).
Proof.
  unfold aq_ok. destruct o; cbn; intros H; try assumption.
  - rewrite app_length. lia.
  - unfold aq_pending. destruct (Nat.leb_spec n (length (q_flushed q) - q_acked q)); cbn; lia.
Qed.

Lemma aq_run_ok ops : forall q, aq_ok q -> aq_ok (aq_run q ops).
Proof. induction ops as [|o r IH]; intros q H; [exact H|]. apply IH, aq_step_ok, H. Qed.

Lemma aq_step_prefix q o : exists ext, q_flushed (aq_step q o) = q_flushed q ++ ext.
Proof.
  exists (match o with AFlush => q_buffered q | _ => [] end).
  destruct o; cbn; try destruct (n <=? aq_pending q)%nat; rewrite ?app_nil_r; reflexivity.
Qed.

Theorem aq_run_prefix ops : forall q, exists ext, q_flushed (aq_run q ops) = q_flushed q ++ ext.
Proof.
  induction ops as [|o r IH]; intros q; [exists []; symmetry; apply app_nil_r|].
  destruct (aq_step_prefix q o) as [e1 H1]. destruct (IH (aq_step q o)) as [e2 H2].
  exists (e1 ++ e2). rewrite app_assoc, <- H1. exact H2.
Qed.

(* C13: q is the queue at the moment the consumer takes its snapshot, ops whatever producer and acker do afterwards *)
Corollary snapshot_stays_valid q ops i e :
  nth_error (q_flushed q) i = Some e -> nth_error (q_flushed (aq_run q ops)) i = Some e.
Proof.
  intros H. destruct (aq_run_prefix ops q) as [ext ->]. rewrite nth_error_app1; [exact H|].
  apply nth_error_Some. congruence.
Qed.

Theorem aq_counters q : aq_ok q ->
  aq_pending q = (aq_tail_id q - aq_read_id q)%nat /\ length (aq_contents q) = aq_pending q.
Proof. intros _. split; [reflexivity | apply skipn_length]. Qed.

Theorem aq_ack_drops_oldest q n : aq_ok q -> (n <= aq_pending q)%nat ->
  aq_contents (aq_step q (AAck n)) = skipn n (aq_contents q) /\
  aq_pending (aq_step q (AAck n)) = (aq_pending q - n)%nat.
Proof.
  intros _ Hn. cbn [aq_step]. apply Nat.leb_le in Hn as ->.
  unfold aq_contents, aq_pending. cbn. split; [symmetry; apply skipn_skipn_add | apply Nat.sub_add_distr].
Qed.

Theorem aq_ack_too_many q n : (aq_pending q < n)%nat -> aq_step q (AAck n) = q.
Proof. intros H. cbn. apply Nat.leb_gt in H as ->. reflexivity. Qed.

(* the right disjunct is the negation of aq_ok *)
Theorem aq_flush q : aq_contents (aq_step q AFlush) = aq_contents q ++ q_buffered q \/ (length (q_flushed q) < q_acked q)%nat.
Proof.
  unfold aq_contents. cbn. destruct (Nat.le_gt_cases (q_acked q) (length (q_flushed q))); [left|right; lia].
  rewrite skipn_app. replace (q_acked q - length (q_flushed q))%nat with O by lia. reflexivity.
Qed.
Theorem aq_flush_fail_keeps q : aq_step q AFlushFail = q.
Proof. reflexivity. Qed.
