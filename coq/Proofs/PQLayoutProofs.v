(* The writer's layout meets the ACK model: the page in which the header of each event starts (as laid out by
   the framing rule of Model/PQ.v: 4-byte header, never split across a page end) is non-decreasing in event order
   and lies inside the chain. These are exactly the hypotheses of ack_pages_spec (Proofs/PQAckProofs.v), which
   therefore applies to every queue content the writer can produce. *)
From VF Require Import PQ BytesProofs PQProofs PQAck PQAckProofs.
From Coq Require Import Lia ZifyNat ZifyBool.
Open Scope nat_scope.

Lemma starts_from_length P evs : forall pos, length (starts_from P pos evs) = length evs.
Proof. induction evs as [|e rest IH]; intros pos; cbn; [reflexivity | rewrite IH; reflexivity]. Qed.

Lemma starts_from_snoc P : forall evs pos e,
  starts_from P pos (evs ++ [e]) =
  starts_from P pos evs ++ [(pos + length (layout_from P pos evs) + pad_at P (pos + length (layout_from P pos evs))) / P].
Proof.
  induction evs as [|x evs IH]; intros pos e; cbn [app starts_from layout_from length].
  - rewrite Nat.add_0_r. reflexivity.
  - rewrite IH, app_length, !Nat.add_assoc. reflexivity.
Qed.

Lemma starts_from_ge P : 0 < P -> forall evs pos q y, q <= pos -> In y (starts_from P pos evs) -> q / P <= y.
Proof.
  intros HP. induction evs as [|e rest IH]; intros pos q y Hq H; [destruct H|]. destruct H as [<-|H].
  - apply Nat.div_le_mono; lia.
  - apply (IH _ q y) in H; [exact H | lia].
Qed.

Theorem starts_mono P evs pos : 0 < P -> mono (starts_from P pos evs).
Proof.
  intros HP. revert pos. induction evs as [|e rest IH]; intros pos; cbn [starts_from]; constructor; [|apply IH].
  intros y. apply (starts_from_ge P HP). rewrite frame_event_length. lia.
Qed.

(* the bound is the page the stream ends in: T of the ACK model *)
Lemma starts_from_lt P : 0 < P -> forall evs pos y, In y (starts_from P pos evs) ->
  y <= (pos + length (layout_from P pos evs)) / P.
Proof.
  intros HP. induction evs as [|e rest IH]; intros pos y H; [destruct H|].
  cbn [layout_from]. rewrite app_length, Nat.add_assoc. destruct H as [<-|H]; [|exact (IH _ _ H)].
  rewrite frame_event_length. apply Nat.div_le_mono; lia.
Qed.

(* h = 0: the events are laid out from the beginning of the head page *)
Theorem ack_on_layout P evs N :
  0 < P -> 1 <= N <= length evs ->
  let ps := starts P evs in
  let T := length (layout P evs) / P in
  ack_pages ps 0 T N = (nth (N - 1) ps 0, false) /\
  (forall i, N - 1 <= i < length evs -> nth (N - 1) ps 0 <= nth i ps 0) /\
  mono ps.
Proof.
  intros HP HN ps T. pose proof (starts_mono P evs 0 HP) as Hm. fold (starts P evs) ps in Hm.
  assert (Hl: length ps = length evs) by apply starts_from_length.
  split; [|split; [|exact Hm]].
  - apply (ack_pages_spec ps 0 T N Hm); [|lia]. intros p H. split; [lia | exact (starts_from_lt P HP evs 0 p H)].
  - intros i Hi. apply (mono_nth ps Hm). lia.
Qed.

Example ack_on_layout_ex :
  starts 100 [repeat 1%Z 50; repeat 2%Z 60; repeat 3%Z 10; repeat 4%Z 300] = [0; 0; 1; 1] /\
  ack_pages (starts 100 [repeat 1%Z 50; repeat 2%Z 60; repeat 3%Z 10; repeat 4%Z 300]) 0 4 3 = (1, false).
Proof.
  set (ps := starts 100 _). assert (E: ps = [0; 0; 1; 1]) by (vm_compute; reflexivity).
  rewrite E. split; reflexivity.
Qed.

(* the binary version run by the correspondence check is the same function *)
Lemma starts_fromZ_spec P : 0 < P -> forall evs pos,
  map Z.of_nat (starts_from P pos evs) = starts_fromZ (Z.of_nat P) (Z.of_nat pos) (map (fun e => Z.of_nat (length e)) evs).
Proof.
  intros HP. induction evs as [|e rest IH]; intros pos; cbn [starts_from starts_fromZ map]; [reflexivity|].
  change pq_szEventHeader with (Z.of_nat hdr_len). set (room := (Z.of_nat P - Z.of_nat pos mod Z.of_nat P)%Z).
  assert (Hpad: Z.of_nat (pad_at P pos) = if (room <? Z.of_nat hdr_len)%Z then room else 0%Z).
  { unfold pad_at. subst room. destruct (P - pos mod P <? hdr_len) eqn:E1, (_ <? _)%Z eqn:E2; lia. }
  rewrite <- Hpad, IH, frame_event_length. f_equal; [|f_equal]; lia.
Qed.
