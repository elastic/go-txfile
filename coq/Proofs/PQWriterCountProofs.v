(* What the Flushed callback reports. flushBuffer invokes the callback with the number of events completed since the
   last successful flush whenever doFlush does not fail - also when doFlush found nothing to write. This is right only
   because "nothing to write" (the head page of the buffer is clean) implies that every page up to the page of the open
   header is clean, i.e. everything completed is in the file already: that is part of the publication invariant of
   PQWriterProofs. Here the reported numbers are added up. *)
From VF Require Import PQ PQWriter BytesProofs PQProofs PQWriterBase PQWriterProofs.
From Coq Require Import Lia.

Section Count.
Variable PS : nat.

Definition cb_of (r : wres) : Z := match r with WOk (Some (_, cb)) => cb | _ => 0%Z end.
Definition cb_total (rs : list wres) : Z := fold_right (fun r acc => (cb_of r + acc)%Z) 0%Z rs.

Lemma flush_buffer_count s fo : (ws_active (fst (flush_buffer s fo)) + cb_of (snd (flush_buffer s fo)) = ws_active s)%Z.
Proof.
  pose proof (do_flush_fields s fo) as H. destruct (do_flush s fo) as [s1 r] eqn:E. destruct H as (_ & _ & H & _).
  rewrite (flush_buffer_spec s fo s1 r E). destruct r; cbn [fst snd settled ws_active cb_of]; lia.
Qed.

Lemma w_step_count s o :
  (ws_active (fst (w_step PS s o)) + cb_of (snd (w_step PS s o)) =
   ws_active s + match o with WNext _ => 1 | _ => 0 end)%Z.
Proof.
  destruct o as [data fo|fo|fo]; cbn [w_step]; [|progress fold (nexted PS s)|pose proof (flush_buffer_count s fo); lia].
  - destruct (_ <=? _)%Z; [|cbn [fst snd wrote ws_active cb_of]; lia].
    pose proof (flush_buffer_count s fo) as H. destruct (flush_buffer s fo) as [s1 [fl|fl]]; cbn [fst snd wrote ws_active] in *; lia.
  - destruct (_ <=? _)%Z; [exact (flush_buffer_count (nexted PS s) fo) | cbn [fst snd nexted ws_active cb_of]; lia].
Qed.

Lemma spec_step_done done cur o r :
  length (fst (spec_step (done, cur) o r)) = (length done + match o with WNext _ => 1 | _ => 0 end)%nat.
Proof. destruct o; [destruct r| |]; cbn [spec_step fst snd]; rewrite ?app_length; cbn [length]; lia. Qed.

Theorem w_run_count : forall ops s done cur,
  let '(s', rs) := w_run PS s ops in
  let '(done', _) := spec_run (done, cur) ops rs in
  (ws_active s' + cb_total rs + Z.of_nat (length done) = ws_active s + Z.of_nat (length done'))%Z.
Proof.
  induction ops as [|o ops IH]; intros s done cur; cbn [w_run spec_run cb_total fold_right]; [lia|].
  pose proof (w_step_count s o) as H1. destruct (w_step PS s o) as [s1 r]. cbn [fst snd] in H1.
  pose proof (spec_step_done done cur o r) as Hd. destruct (spec_step (done, cur) o r) as [done1 cur1] eqn:E. cbn [fst] in Hd.
  specialize (IH s1 done1 cur1). destruct (w_run PS s1 ops) as [s2 rs]. cbn [spec_run cb_total fold_right]. rewrite E.
  destruct (spec_run (done1, cur1) ops rs) as [done2 cur2]. unfold cb_total in *. clear - H1 Hd IH. destruct o; lia.
Qed.

End Count.

Lemma reset_end_clean : forall A B j h last, Forall (fun p => wp_dirty p = false) A ->
  (j <= Nat.min h last)%nat -> length A = S (Nat.min h last - j) ->
  reset_end (A ++ B) j (Some h) last = Nat.min h last.
Proof. exact reset_end_stop. Qed.

Section CountRuns.
Variable PS : nat.
Notation P := (payload PS).
Hypothesis HP : (hdr_len <= P)%nat.

(* a run, then a Next / Flush call whose flush does not fail (it may have found nothing to write): the Flushed callbacks
   reported so far add up to the number of completed events, and exactly these events are in the file *)
Theorem flushed_callbacks_report_the_published_events pages tail endId root ops o :
  match tail with Some t => (length (wp_data t) <= P)%nat /\ wp_dirty t = false /\ wp_disk t = Some (wp_data t) | None => True end ->
  let base := match tail with Some t => wp_data t | None => [] end in
  let '(s1, rs) := w_run PS (w_init PS pages tail endId root) ops in
  let '(s2, r) := w_step PS s1 o in
  let '(done, cur) := spec_step (spec_run ([], []) ops rs) o r in
  match o, r with
  | WNext _, WOk (Some _) | WFlush _, WOk (Some _) =>
      (cb_total rs + cb_of r = Z.of_nat (length done))%Z /\ ws_active s2 = 0%Z /\
      (Forall (fun e => Z.of_nat (length e) < 256 ^ Z.of_nat hdr_len)%Z done ->
       exists i off, b_hdr (ws_buf s2) = Some (i, off) /\
         parse_from P (flat P (map disk_data (cores (ws_hist s2 ++ firstn (S i) (b_pages (ws_buf s2)))))) (length base) (length done) = Some done)
  | _, _ => True
  end.
Proof.
  intros Ht. pose proof (flush_publishes PS HP pages tail endId root ops o Ht) as H.
  pose proof (w_run_count PS ops (w_init PS pages tail endId root) [] []) as HC. cbn zeta in *.
  destruct (w_run PS (w_init PS pages tail endId root) ops) as [s1 rs].
  destruct (spec_run ([], []) ops rs) as [done1 cur1]. cbn [w_init ws_active length] in HC.
  pose proof (w_step_count PS s1 o) as HC2. pose proof (spec_step_done done1 cur1 o) as Hd.
  destruct (w_step PS s1 o) as [s2 r]. specialize (Hd r). destruct (spec_step (done1, cur1) o r) as [done cur].
  cbn [fst snd] in HC2, Hd. destruct o; [exact I| |]; destruct r as [[[fr cb]|]|]; try exact I;
    destruct H as (HS & HPub & Hact);
    (split; [cbn [cb_of] in *; clear - HC HC2 Hd Hact; lia | exact (conj Hact (published_events PS s2 _ done cur HS HPub))]).
Qed.

End CountRuns.
