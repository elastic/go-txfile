(* What the operations of the queue writer (Model/PQWriter.v) do to the list of buffer pages, in the form the invariants
   of PQWriterProofs / PQWriterHeaderProofs use. Every invariant looks at the pages through a projection [map f]
   (payload; payload, dirty flag and disk version; header fields); the lemmas here are about an arbitrary f and say
   which of its equations they need. *)
From VF Require Import PQ PQWriter BytesProofs PQProofs.
From Coq Require Import Lia.
Local Open Scope nat_scope.

Lemma upd_nth_app_r {A} (f : A -> A) (a b : list A) i : upd_nth (length a + i) f (a ++ b) = a ++ upd_nth i f b.
Proof. induction a as [|x a IH]; cbn; [reflexivity | rewrite IH; reflexivity]. Qed.

Lemma upd_nth_app {A} (f : A -> A) (a : list A) x b : upd_nth (length a) f (a ++ x :: b) = a ++ f x :: b.
Proof. rewrite <- (Nat.add_0_r (length a)). apply (upd_nth_app_r f a (x :: b) 0). Qed.

Lemma upd_last_snoc {A} (f : A -> A) (a : list A) x : upd_last f (a ++ [x]) = a ++ [f x].
Proof. unfold upd_last. rewrite app_length, Nat.add_sub. apply upd_nth_app. Qed.

Lemma upd_nth_length {A} (f : A -> A) : forall (l : list A) i, length (upd_nth i f l) = length l.
Proof. induction l as [|x l IH]; intros [|i]; cbn; auto. Qed.

Lemma nth_error_upd_nth {A} (f : A -> A) : forall (l : list A) i j,
  nth_error (upd_nth i f l) j = if j =? i then option_map f (nth_error l j) else nth_error l j.
Proof.
  induction l as [|x l IH]; intros [|i] [|j]; cbn; try reflexivity.
  - destruct (j =? i); reflexivity.
  - apply IH.
Qed.

Lemma Forall_upd_nth {A} (Q : A -> Prop) (f : A -> A) : (forall x, Q x -> Q (f x)) ->
  forall l i, Forall Q l -> Forall Q (upd_nth i f l).
Proof. intros Hf. induction l as [|x l IH]; intros [|i] H; cbn; auto; inversion H; subst; constructor; auto. Qed.

Lemma map_upd_nth_comm {A B} (h : A -> B) (f : A -> A) (f' : B -> B) : (forall x, h (f x) = f' (h x)) ->
  forall (l : list A) i, map h (upd_nth i f l) = upd_nth i f' (map h l).
Proof. intros H. induction l as [|x l IH]; intros [|i]; cbn; auto; [rewrite H | rewrite IH]; reflexivity. Qed.

Lemma map_upd_nth {A B} (h : A -> B) (f : A -> A) : (forall x, h (f x) = h x) ->
  forall (l : list A) i, map h (upd_nth i f l) = map h l.
Proof. intros H. induction l as [|x l IH]; intros [|i]; cbn; auto; [rewrite H | rewrite IH]; reflexivity. Qed.

(* L is a projection of the buffer pages, hdr the buffer's b_hdr: the header lies in the page behind A, at offset off *)
Definition open_at {X} (L : list X) (hdr : option (nat * nat)) (A : list X) (x : X) (B : list X) (off : nat) : Prop :=
  L = A ++ x :: B /\ hdr = Some (length A, off).

Lemma open_at_map {X Y} (h : X -> Y) {L : list X} {hdr A x B off} :
  open_at L hdr A x B off -> open_at (map h L) hdr (map h A) (h x) (map h B) off.
Proof. intros [-> ->]. split; [rewrite map_app | rewrite map_length]; reflexivity. Qed.

Lemma open_at_inj {X} {L : list X} {hdr A x B off A' x' B' off'} :
  open_at L hdr A x B off -> open_at L hdr A' x' B' off' -> A = A' /\ x = x' /\ B = B' /\ off = off'.
Proof.
  intros [-> ->] [E Hh]. injection Hh as Hl <-.
  revert A' E Hl. induction A as [|y A IH]; intros [|y' A'] E Hl; try discriminate Hl.
  - injection E as -> ->. auto.
  - injection E as <- E. injection Hl as Hl. destruct (IH A' E Hl) as (<- & <- & <- & _). auto.
Qed.

Lemma open_at_ne {X} {f : wpage -> X} {l hdr A x B off} : open_at (map f l) hdr A x B off -> l <> [].
Proof. intros [E _] ->. exact (app_cons_not_nil _ _ _ E). Qed.

Lemma open_at_page {X} {f : wpage -> X} {l hdr A x B off} : open_at (map f l) hdr A x B off ->
  exists p, nth_error l (length A) = Some p /\ f p = x.
Proof.
  intros [E _]. assert (H : nth_error (map f l) (length A) = Some x).
  { rewrite E, nth_error_app2, Nat.sub_diag by apply le_n. reflexivity. }
  rewrite nth_error_map in H. destruct (nth_error l (length A)) as [p|]; [|discriminate]. injection H as H. eauto.
Qed.

Section Proj.
Context {X : Type} (f : wpage -> X).

Lemma map_assign : (forall v p, f (set_id v p) = f p) -> forall ids l, map f (assign ids l) = map f l.
Proof.
  intros H ids l. revert ids.
  induction l as [|x l IH]; intros [|id ids]; cbn [assign map]; [reflexivity.. | rewrite H, IH; reflexivity].
Qed.

Lemma map_link : (forall v p, f (set_next v p) = f p) -> forall l, map f (link l) = map f l.
Proof. intros H. induction l as [|x [|y l] IH]; [reflexivity..|]. cbn [link map] in *. rewrite H, IH. reflexivity. Qed.

Lemma map_stale_links : (forall v p, f (set_next v p) = f p) -> forall l, map f (stale_links l) = map f l.
Proof. intros H. induction l as [|x [|y l] IH]; [reflexivity..|]. cbn [stale_links map] in *. rewrite H, IH. reflexivity. Qed.

Lemma map_mark_from (m : X -> X) : (forall p, f (set_dirty true p) = m (f p)) ->
  forall l i, map f (mark_from i l) = firstn i (map f l) ++ map m (skipn i (map f l)).
Proof.
  intros H. induction l as [|x l IH]; intros [|i]; cbn [mark_from map firstn skipn app]; [reflexivity.. | |].
  - rewrite H. f_equal. apply (IH 0).
  - f_equal. apply IH.
Qed.

End Proj.

(* Append and ReserveHdr write behind the last byte of the tail page, or into a fresh page when they find too little room:
   t is the page that receives the bytes, a the pages in front of it *)
Definition tail_page (fresh : bool) (l a : list wpage) (t : wpage) : Prop :=
  if fresh then a = l /\ t = fresh_wpage else l = a ++ [t].

Section Ops.
Variable PS : nat.

Lemma tail_len_snoc b a t : b_pages b = a ++ [t] -> tail_len PS b = length (wp_data t).
Proof. intros H. unfold tail_len. rewrite H, rev_unit. reflexivity. Qed.

Lemma push_tail (fresh : bool) b d : (b_pages b = [] -> fresh = true) ->
  let b1 := if fresh then advance b else b in
  exists a t, tail_page fresh (b_pages b) a t /\
    upd_last (push d) (b_pages b1) = a ++ [push d t] /\ length (b_pages b1) - 1 = length a /\
    tail_len PS b1 = length (wp_data t).
Proof.
  intros Hne. destruct fresh; cbn zeta.
  - exists (b_pages b), fresh_wpage. cbn [advance b_pages]. split; [split; reflexivity|]. split; [apply upd_last_snoc|].
    split; [rewrite app_length; apply Nat.add_sub | apply (tail_len_snoc _ (b_pages b)); reflexivity].
  - destruct (snoc_cases (b_pages b)) as [E|(a & t & E)]; [discriminate (Hne E)|].
    exists a, t. split; [exact E|]. rewrite E. split; [apply upd_last_snoc|].
    split; [rewrite app_length; apply Nat.add_sub | apply (tail_len_snoc _ a); exact E].
Qed.

Lemma room_nil b : b_pages b = [] -> room PS b = 0.
Proof. intros E. unfold room, tail_len. rewrite E. apply Nat.sub_diag. Qed.

Lemma append_byte_spec b x : exists a t,
  tail_page (room PS b =? 0) (b_pages b) a t /\
  b_pages (append_byte PS b x) = a ++ [push [x] t] /\ b_hdr (append_byte PS b x) = b_hdr b /\
  (0 < payload PS -> length (wp_data t) < payload PS).
Proof.
  destruct (push_tail (room PS b =? 0) b [x]) as (a & t & Hc & Hp & _).
  { intros E. rewrite (room_nil b E). reflexivity. }
  exists a, t. split; [exact Hc|]. split; [exact Hp|]. unfold append_byte, room in *.
  destruct (Nat.eqb_spec (payload PS - tail_len PS b) 0) as [_|Hr]; [destruct Hc as [_ ->]; auto|].
  (* here and in the files that build on this one the context is cleared before lia, which otherwise translates every
     hypothesis *)
  rewrite (tail_len_snoc b a t Hc) in Hr. split; [reflexivity | clear - Hr; lia].
Qed.

Lemma reserve_hdr_spec b : exists a t,
  tail_page (room PS b <? hdr_len) (b_pages b) a t /\
  b_pages (reserve_hdr PS b) = a ++ [push (zeros hdr_len) t] /\
  b_hdr (reserve_hdr PS b) = Some (length a, pgH + length (wp_data t)) /\
  (hdr_len <= payload PS -> length (wp_data t) + hdr_len <= payload PS).
Proof.
  destruct (push_tail (room PS b <? hdr_len) b (zeros hdr_len)) as (a & t & Hc & Hp & Hl & Ht).
  { intros E. rewrite (room_nil b E). reflexivity. }
  exists a, t. split; [exact Hc|]. split; [exact Hp|]. split; [unfold reserve_hdr; cbn [b_hdr]; rewrite Hl, Ht; reflexivity|].
  unfold room in *. destruct (Nat.ltb_spec (payload PS - tail_len PS b) hdr_len) as [_|Hr]; [destruct Hc as [_ ->]; auto|].
  rewrite (tail_len_snoc b a t Hc) in Hr. pose proof hdr_len_4. clear - Hr H. lia.
Qed.

(* seen through a projection: the page that receives the bytes, old or fresh, becomes the last page; it is the header
   page or a later one *)
Lemma open_at_push_tail {X} (f : wpage -> X) (u : X -> X) d {fresh : bool} {l a t hdr A x B off} :
  (forall p, f (push d p) = u (f p)) -> tail_page fresh l a t -> open_at (map f l) hdr A x B off ->
  exists x' B', open_at (map f (a ++ [push d t])) hdr A x' B' off /\ (x' = x \/ x' = u x).
Proof.
  intros Hu Hc [E ->]. unfold tail_page in Hc. rewrite map_app. cbn [map]. rewrite Hu. destruct fresh.
  - destruct Hc as [-> ->]. exists x, (B ++ [u (f fresh_wpage)]). rewrite E, <- app_assoc. split; [split; reflexivity | auto].
  - subst l. rewrite map_app in E. cbn [map] in E. destruct (snoc_cases B) as [->|(B0 & t0 & ->)].
    + apply app_inj_tail in E. destruct E as [-> ->]. exists (u x), []. split; [split; reflexivity | auto].
    + change (A ++ x :: B0 ++ [t0]) with (A ++ (x :: B0) ++ [t0]) in E. rewrite app_assoc in E.
      apply app_inj_tail in E. destruct E as [-> ->]. exists x, (B0 ++ [u t0]).
      split; [split; [rewrite <- app_assoc|]; reflexivity | auto].
Qed.

(* a projection that does not see the payload sees at most a fresh page *)
Lemma map_push_tail {X} (f : wpage -> X) d {fresh : bool} {l a t} :
  (forall p, f (push d p) = f p) -> tail_page fresh l a t ->
  map f (a ++ [push d t]) = map f l ++ repeat (f fresh_wpage) (if fresh then 1 else 0).
Proof.
  intros Hu Hc. unfold tail_page in Hc. rewrite map_app. cbn [map]. rewrite Hu. destruct fresh.
  - destruct Hc as [-> ->]. reflexivity.
  - subst l. rewrite map_app. symmetry. apply app_nil_r.
Qed.

Lemma map_append {X} (f : wpage -> X) : (forall d p, f (push d p) = f p) ->
  forall data b, exists m, map f (b_pages (append PS b data)) = map f (b_pages b) ++ repeat (f fresh_wpage) m.
Proof.
  intros Hu. unfold append. induction data as [|x data IH]; intros b; cbn [fold_left].
  - exists 0. symmetry. apply app_nil_r.
  - destruct (IH (append_byte PS b x)) as [m1 H1]. destruct (append_byte_spec b x) as (a & t & Hc & Hp & _).
    eexists. rewrite H1, Hp, (map_push_tail f _ (Hu _) Hc), <- app_assoc, <- repeat_app. reflexivity.
Qed.

Lemma map_reserve_hdr {X} (f : wpage -> X) b : (forall d p, f (push d p) = f p) ->
  exists m, map f (b_pages (reserve_hdr PS b)) = map f (b_pages b) ++ repeat (f fresh_wpage) m.
Proof.
  intros Hu. destruct (reserve_hdr_spec b) as (a & t & Hc & -> & _). eexists. apply (map_push_tail f _ (Hu _) Hc).
Qed.

End Ops.

Lemma set_hdr_size_spec b sz i k : b_hdr b = Some (i, pgH + k) ->
  b_pages (set_hdr_size b sz) = upd_nth i (fun p => set_data p (splice k (le_encode hdr_len sz) (wp_data p))) (b_pages b) /\
  b_hdr (set_hdr_size b sz) = b_hdr b.
Proof. intros H. unfold set_hdr_size. rewrite H, Nat.add_comm, Nat.add_sub. split; reflexivity. Qed.

Lemma open_at_set_hdr_size {X} (f : wpage -> X) (u : X -> X) {b} sz {A x B k} :
  (forall p, f (set_data p (splice k (le_encode hdr_len sz) (wp_data p))) = u (f p)) ->
  open_at (map f (b_pages b)) (b_hdr b) A x B (pgH + k) ->
  open_at (map f (b_pages (set_hdr_size b sz))) (b_hdr (set_hdr_size b sz)) A (u x) B (pgH + k).
Proof.
  intros Hu [E Hh]. destruct (set_hdr_size_spec b sz _ _ Hh) as [-> ->].
  split; [|exact Hh]. rewrite (map_upd_nth_comm f _ u Hu), E. apply upd_nth_app.
Qed.

(* what CommitEvent writes into the header of the page the event starts in *)
Definition stamp (off : nat) (id : Z) (p : wpage) : wpage :=
  if wp_off p =? 0
  then {| wp_id := wp_id p; wp_first := id; wp_last := id; wp_off := off; wp_dirty := wp_dirty p;
          wp_next := wp_next p; wp_data := wp_data p; wp_disk := wp_disk p |}
  else {| wp_id := wp_id p; wp_first := wp_first p; wp_last := id; wp_off := wp_off p; wp_dirty := wp_dirty p;
          wp_next := wp_next p; wp_data := wp_data p; wp_disk := wp_disk p |}.

Lemma commit_event_spec b id i off : b_hdr b = Some (i, off) ->
  b_pages (commit_event b id) =
  (if i =? 1 then upd_nth 0 (set_dirty true) else fun l => l) (mark_from i (upd_nth i (stamp off id) (b_pages b))).
Proof. intros H. unfold commit_event. rewrite H. destruct (i =? 1); reflexivity. Qed.

Lemma reset_end_le : forall l i h last, i <= h -> reset_end l i (Some h) last <= h.
Proof.
  induction l as [|cur [|nxt tl] IH]; intros i h last Hi; cbn [reset_end]; [exact Hi..|].
  destruct (Nat.eqb_spec h i) as [->|Hne]; [apply le_n|].
  destruct (wp_dirty nxt || (i =? last)); [exact Hi|]. apply IH. lia.
Qed.

(* buffer.Reset after a flush of the clean pages A: it stops at the page of the open header or at the last flushed page *)
Lemma reset_end_stop : forall A B j h last, Forall (fun p => wp_dirty p = false) A ->
  j <= Nat.min h last -> length A = S (Nat.min h last - j) -> reset_end (A ++ B) j (Some h) last = Nat.min h last.
Proof.
  induction A as [|a A IH]; intros B j h last Hcl Hj Hlen; [discriminate|].
  destruct A as [|a' A']; cbn [length] in Hlen.
  - destruct B as [|b0 B']; cbn [app reset_end]; [lia|]. destruct (Nat.eqb_spec h j); [lia|].
    replace (j =? last) with true by (symmetry; apply Nat.eqb_eq; lia). rewrite orb_true_r. lia.
  - change ((a :: a' :: A') ++ B) with (a :: (a' :: A') ++ B). cbn [reset_end app].
    inversion Hcl as [|? ? _ Hcl']; subst. rewrite (Forall_inv Hcl').
    replace (j =? last) with false by (symmetry; apply Nat.eqb_neq; lia).
    destruct (Nat.eqb_spec h j); [lia|]. apply (IH B (S j) h last Hcl'); cbn [length]; lia.
Qed.

(* the range of a flush while an event is open: up to the header page, that page included iff it is dirty *)
Lemma flush_range_open b i off p : b_hdr b = Some (i, off) -> nth_error (b_pages b) i = Some p ->
  exists h tl, b_pages b = h :: tl /\
    fst (flush_range b) = if wp_dirty h then (if wp_dirty p then S i else i) else 0.
Proof.
  intros Hh Hp. unfold flush_range. rewrite Hh, (nth_error_nth _ _ fresh_wpage Hp).
  destruct (b_pages b) as [|h tl]; [destruct i; discriminate|]. exists h, tl. split; [reflexivity|].
  destruct (wp_dirty h); [destruct (wp_dirty p)|]; reflexivity.
Qed.

(* the event id in the tail position that a successful flush stores in the queue root is that of the next event *)
Lemma do_flush_fields s fo : let '(s', r) := do_flush s fo in
  ws_evBytes s' = ws_evBytes s /\ ws_evId s' = ws_evId s /\ ws_active s' = ws_active s /\
  match r with FDone _ _ _ => snd (q_tail (ws_root s')) = ws_evId s | _ => ws_root s' = ws_root s end.
Proof. unfold do_flush. destruct (flush_range (ws_buf s)) as [[|n] rep]; [|destruct fo]; repeat split. Qed.

Section Flush.
Context {X : Type} (f : wpage -> X) (g : X -> X).
Hypothesis f_id : forall v p, f (set_id v p) = f p.
Hypothesis f_next : forall v p, f (set_next v p) = f p.
Hypothesis f_clean : forall p, f (set_disk (Some (wp_data p)) (set_dirty false p)) = g (f p).

(* page ids for the pages of the range that have none; the ids taken back after a late failure *)
Lemma map_allocate u ids l : map f (firstn u l ++ assign ids (skipn u l)) = map f l.
Proof. rewrite map_app, (map_assign f f_id), <- map_app, firstn_skipn. reflexivity. Qed.

Lemma map_take_back u l : map f (firstn u l ++ map (set_id 0%Z) (skipn u l)) = map f l.
Proof. rewrite map_app, map_map, (map_ext _ f (f_id 0%Z)), <- map_app, firstn_skipn. reflexivity. Qed.

(* a flush never changes what f sees of all pages, released ones and buffer pages together, if f does not see the flags *)
Lemma do_flush_all s fo : (forall x, g x = x) ->
  map f (ws_hist (fst (do_flush s fo)) ++ b_pages (ws_buf (fst (do_flush s fo)))) = map f (ws_hist s ++ b_pages (ws_buf s)).
Proof.
  intros Hg. unfold do_flush. destruct (flush_range (ws_buf s)) as [[|n] rep]; [reflexivity|].
  set (pages := b_pages (ws_buf s)). set (range := firstn (S n) pages). set (u := first_unassigned range).
  assert (Hsplit : map f range ++ map f (skipn (S n) pages) = map f pages) by (rewrite <- map_app; apply f_equal, firstn_skipn).
  destruct fo as [ids| |ids]; cbn [fst with_buf ws_hist ws_buf b_pages]; [rewrite <- app_assoc, firstn_skipn|reflexivity|];
    rewrite !(map_app f (ws_hist s)); f_equal; rewrite map_app.
  - rewrite map_map, (map_ext _ f (fun p => eq_trans (f_clean p) (Hg _))), (map_link f f_next), map_allocate. exact Hsplit.
  - rewrite map_take_back, (map_stale_links f f_next), map_allocate. exact Hsplit.
Qed.

(* A flush while an event is open, its header in the page behind A. It finds nothing to write only if the head page of the
   buffer is clean. A failure leaves every page as f sees it. After a success the flushed pages are clean (g) and all of
   them but the last are released; the header page is the last flushed page, or the page behind it if it was clean. *)
Theorem do_flush_open s fo {A x B off} :
  open_at (map f (b_pages (ws_buf s))) (b_hdr (ws_buf s)) A x B off ->
  let '(s', r) := do_flush s fo in
  match r with
  | FNothing => s' = s /\ exists h, f h = hd x A /\ wp_dirty h = false
  | FFailed _ _ => map f (ws_hist s') = map f (ws_hist s) /\ open_at (map f (b_pages (ws_buf s'))) (b_hdr (ws_buf s')) A x B off
  | FDone _ _ _ => exists n x', n <= length A /\
      map f (ws_hist s') = map f (ws_hist s) ++ map g (firstn n A) /\
      open_at (map f (b_pages (ws_buf s'))) (b_hdr (ws_buf s')) (map g (skipn n A)) x' B off /\
      (S n = length A /\ x' = x /\ (exists p, f p = x /\ wp_dirty p = false) \/ n = length A /\ x' = g x)
  end.
Proof.
  intros HO. pose proof HO as [HL Hh]. destruct (open_at_page HO) as (p & Hp & Hfp).
  destruct (flush_range_open _ _ _ _ Hh Hp) as (h & tl & Epg & FR).
  unfold do_flush. destruct (flush_range (ws_buf s)) as [[|n] rep]; cbn [fst] in FR.
  { split; [reflexivity|]. exists h. rewrite Epg in HL, Hp.
    split; [destruct A; injection HL as <- _; reflexivity|]. destruct (wp_dirty h) eqn:Dh; [|reflexivity].
    (* a dirty head page is written, unless it holds the header and is clean *)
    destruct (wp_dirty p) eqn:Dp; [discriminate FR|]. destruct A; [|discriminate FR]. injection Hp as ->. congruence. }
  set (pages := b_pages (ws_buf s)) in *. set (range := firstn (S n) pages). set (rest := skipn (S n) pages).
  set (u := first_unassigned range).
  destruct fo as [ids| |ids]; cbn [with_buf ws_hist ws_buf b_pages b_hdr].
  - set (A2 := map _ (link _)). rewrite Hh. cbn [option_map fst].
    assert (Hn : S n = length A /\ wp_dirty p = false \/ n = length A /\ wp_dirty p = true).
    { destruct (wp_dirty h); [|discriminate]. destruct (wp_dirty p); lia. }
    assert (HnA : n <= length A) by (clear - Hn; lia).
    assert (HA2 : map f A2 = map g (firstn (S n) (A ++ x :: B))).
    { unfold A2. rewrite map_map, (map_ext _ _ f_clean), <- map_map, (map_link f f_next), map_allocate.
      unfold range. rewrite <- firstn_map, HL. reflexivity. }
    assert (exists x', map f (A2 ++ rest) = map g A ++ x' :: B /\
              (S n = length A /\ x' = x /\ (exists p, f p = x /\ wp_dirty p = false) \/ n = length A /\ x' = g x))
      as (x' & Hcl & Hx').
    { unfold rest. rewrite map_app, HA2, <- skipn_map, HL. destruct Hn as [[-> Hd]|[-> _]].
      - exists x. rewrite firstn_app_exact, skipn_app_exact. eauto 7.
      - exists (g x). rewrite firstn_middle, skipn_middle, map_app, <- app_assoc. auto. }
    (* Reset releases the flushed pages but the last *)
    assert (Hk : reset_end (A2 ++ rest) 0 (Some (length A)) n = n).
    { rewrite <- (Nat.min_r (length A) n HnA) at 2. apply (reset_end_stop A2 rest 0 (length A) n).
      - apply Forall_map_all. reflexivity.
      - apply Nat.le_0_l.
      - rewrite Nat.min_r, Nat.sub_0_r by exact HnA. apply (f_equal (@length _)) in HA2.
        rewrite !map_length, firstn_length_le in HA2; [exact HA2|]. rewrite app_length. cbn [length]. clear - HnA. lia. }
    rewrite Hk. exists n, x'. split; [exact HnA|].
    split; [rewrite map_app, <- firstn_map, Hcl, firstn_app_le, firstn_map by (rewrite map_length; exact HnA); reflexivity|].
    split; [|exact Hx'].
    split; [rewrite <- skipn_map, Hcl, skipn_app_le, skipn_map by (rewrite map_length; exact HnA); reflexivity|].
    rewrite map_length, skipn_length. reflexivity.
  - auto.
  - split; [reflexivity|]. split; [|exact Hh].
    rewrite map_app, map_take_back, (map_stale_links f f_next), map_allocate, <- map_app. unfold range, rest.
    rewrite firstn_skipn. exact HL.
Qed.

End Flush.

(* the Flushed callback has been invoked: the statistics are reset *)
Definition settled (s : wst) : wst :=
  {| ws_buf := ws_buf s; ws_evBytes := ws_evBytes s; ws_evId := ws_evId s; ws_active := 0; ws_root := ws_root s;
     ws_hist := ws_hist s |}.

Lemma flush_buffer_spec s fo s1 r : do_flush s fo = (s1, r) ->
  flush_buffer s fo = match r with FFailed _ _ => (s1, WErr r) | _ => (settled s1, WOk (Some (r, ws_active s))) end.
Proof. intros E. unfold flush_buffer. rewrite E. destruct r; reflexivity. Qed.

(* the state after the data of a Write is appended / after Next has completed the event and reserved the next header *)
Definition wrote (PS : nat) (s : wst) (data : list Z) : wst :=
  {| ws_buf := append PS (ws_buf s) data; ws_evBytes := (ws_evBytes s + Z.of_nat (length data))%Z; ws_evId := ws_evId s;
     ws_active := ws_active s; ws_root := ws_root s; ws_hist := ws_hist s |}.
Definition nexted (PS : nat) (s : wst) : wst :=
  {| ws_buf := reserve_hdr PS (commit_event (set_hdr_size (ws_buf s) (ws_evBytes s)) (ws_evId s)); ws_evBytes := 0;
     ws_evId := (ws_evId s + 1)%Z; ws_active := (ws_active s + 1)%Z; ws_root := ws_root s; ws_hist := ws_hist s |}.
