(* C03 -- The store returns what was written.
   (a) the asynchronous writer: however queued page writes are batched, the disk ends up as if they
       had been applied one by one in schedule order (last write per page wins) -- needs the STABLE
       sort of the repaired source; refuted for an arbitrary id-sorted permutation (D4);
   (b) the page write buffer refines the obvious content specification for full / partial SetBytes,
       Load, in-place modification, Bytes, Flush, Free on fresh and existing pages (incl. D8).
   The composition over whole transactions (mapping read-through, commit) is checked on the
   implementation by the sequential map oracle of the campaign. Property theorems only. *)
From VF Require Import Writer WriterProofs PageBuf PageBufProofs.
From Coq Require Import Sorting.Permutation.

Theorem C03_writer_last_write_wins : forall bs d p, run_batches d bs p = spec_disk d (concat bs) p.
Proof. exact writer_last_write_wins. Qed.
Print Assumptions C03_writer_last_write_wins.

Theorem C03_unstable_sort_refuted :
  exists (perm : list wmsg),
    Permutation perm unstable_example /\
    (forall i j x y, nth_error perm i = Some x -> nth_error perm j = Some y -> (i <= j)%nat -> w_id x <= w_id y) /\
    apply_msgs (fun _ => None) perm 5 <> spec_disk (fun _ => None) unstable_example 5.
Proof. exact unstable_sort_refuted. Qed.

Theorem C03_set_bytes : forall ps p c p', wf ps p -> page_set_bytes ps p c = POk p' ->
  wf ps p' /\
  lcontent p' = Some (if (length c <? ps)%nat then c ++ skipn (length c) (base ps (lcontent p)) else c) /\
  f_dirty (pg_flags p') = true.
Proof. exact set_bytes_spec. Qed.
Print Assumptions C03_set_bytes.

Theorem C03_load : forall ps p p', wf ps p -> page_load ps p = POk p' ->
  wf ps p' /\ lcontent p' = Some (base ps (lcontent p)).
Proof. exact load_spec. Qed.

Theorem C03_modify : forall ps p off c p', wf ps p -> (off + length c <= ps)%nat -> page_modify p off c = POk p' ->
  exists b, pg_bytes p = Some b /\ wf ps p' /\ lcontent p' = Some (splice off c b).
Proof. exact modify_spec. Qed.

(* MarkDirty (repair of D35): the content stays, the page is dirty and has a buffer to write back; as found, MarkDirty on
   a page that was never loaded made it dirty WITHOUT a buffer - its flush wrote nothing and the commit moved the page
   to a fresh location: the committed contents were lost (C03_mark_dirty_before_the_fix_refuted) *)
Theorem C03_mark_dirty : forall ps p p', wf ps p -> page_mark_dirty ps p = POk p' ->
  wf ps p' /\ lcontent p' = Some (base ps (lcontent p)) /\ f_dirty (pg_flags p') = true.
Proof. exact mark_dirty_spec. Qed.
Print Assumptions C03_mark_dirty.
Theorem C03_mark_dirty_before_the_fix_refuted : exists (p p' p'' : pagest) w,
  wf 4 p /\ page_mark_dirty_v1 p = POk p' /\ f_dirty (pg_flags p') = true /\
  page_flush p' = POk (p'', w) /\ w = None /\ lcontent p = Some [1; 2; 3; 4].
Proof. exact mark_dirty_v1_refuted. Qed.

Theorem C03_bytes : forall p, page_bytes p = match lcontent p with Some b => POk b | None => PErr EInvalidOp end.
Proof. exact bytes_spec. Qed.

Theorem C03_flush : forall ps p p' w, wf ps p -> page_flush p = POk (p', w) ->
  lcontent p' = lcontent p /\
  (f_dirty (pg_flags p) = true -> w = lcontent p /\ can_write p' = false) /\
  (f_dirty (pg_flags p) = false -> w = None /\ p' = p).
Proof. exact flush_spec. Qed.

Theorem C03_free : forall p p', page_free p = POk p' ->
  f_dirty (pg_flags p) = false /\ lcontent p' = lcontent p /\ can_write p' = false.
Proof. exact free_spec. Qed.
Print Assumptions C03_free.

Theorem C03_fresh_setfull_then_load : forall ps c p1 p2, length c = ps ->
  page_set_bytes ps fresh_page c = POk p1 -> page_load ps p1 = POk p2 -> lcontent p2 = Some c.
Proof. exact fresh_setfull_then_load. Qed.

(* non-vacuity *)
Example C03_ex_wf : wf 4 fresh_page /\ wf 4 (existing_page [1;2;3;4]).
Proof. split; [apply fresh_wf | apply existing_wf; reflexivity]. Qed.
Example C03_ex_batches :
  run_batches (fun _ => None) [[{| w_id := 7; w_buf := [1] |}; {| w_id := 3; w_buf := [2] |}; {| w_id := 7; w_buf := [3] |}]] 7 = Some [3].
Proof. reflexivity. Qed.

(* ---- whole transactions (Model/TxCore.v: Page.doFlush, CheckpointWAL, the mapping update and automatic
   checkpoint of Commit; the model is compared with the implementation's overwrite mapping after every commit).
   For EVERY sequence of allocations, page writes, page / transaction flushes and manual checkpoints, every
   overwrite-page limit and every well-formed committed state: after the commit every page reads - through the
   new mapping, from the bytes the writer leaves when it executes the scheduled writes in schedule order - as
   the last value the transaction wrote to it, every other page as before. ---- *)
From VF Require Import TxCore TxCoreProofs.
Theorem C03_committed_transaction_reads : forall (V : Type) (s : fstate V) (fresh0 : list Z),
  WF V s fresh0 -> forall ops limit,
  ops_ok V s fresh0 (tx_begin V fresh0) ops ->
  let t := tx_run V s (tx_begin V fresh0) ops in
  let t1 := flush_all V s t in
  (forall id v, aget V (t_dirty V t1) id = Some v -> In id (t_flushed V t1)) ->
  forall id, data_id V s fresh0 id ->
  f_read V (tx_commit V s t limit) id =
  match aget V (t_dirty V t) id with Some v => v | None => f_read V s id end.
Proof. exact commit_reads. Qed.
Print Assumptions C03_committed_transaction_reads.

(* non-vacuity: page 5 lives in overwrite page 20, page 6 in 21; the transaction writes 5 and 7, checkpoints,
   writes 6 (after the checkpoint copied it back: two writes to page 6 are queued), commits *)
Example C03_ex_tx :
  let s := {| f_disk := fun p => p * 100; f_wal := [(5, 20); (6, 21)] |} in
  let ops := [OSet Z 5 1; OSet Z 7 2; OFlushAll Z; OCheckpoint Z; OSet Z 6 3] in
  let s' := tx_commit Z s (tx_run Z s (tx_begin Z [30; 31; 32]) ops) 1000 in
  map (f_read Z s') [5; 6; 7; 8] = [1; 3; 2; 800] /\ f_wal Z s' = [(7, 30)].
Proof. vm_compute. split; reflexivity. Qed.

(* ---- the writer's scheduling queue (write.go Schedule / Sync / nextCommand): page writes reach the file in schedule order, across batches and syncs ----
   For every interleaving of Schedule / Sync calls with nextCommand calls of ANY buffer sizes: what the goroutine has
   been handed so far, followed by what the queue still holds, is the sequence of writes and syncs in the order they
   were scheduled. A sync is executed after all writes scheduled before it and before every write scheduled later. *)
From VF Require Import Writer WriterProofs WriterQueue WriterQueueProofs WriterComposeProofs.
Theorem C03_writer_queue_preserves_schedule : forall (A : Type) (ops : list (qop A)) (s : wq A),
  Inv s -> buffers_ok ops ->
  let '(s', out, inp) := wq_run s ops in
  out ++ remaining s' = remaining s ++ inp /\ Inv s'.
Proof. intros A ops s I _. exact (run_preserves_schedule ops s I). Qed.
Print Assumptions C03_writer_queue_preserves_schedule.

Theorem C03_writer_executes_the_schedule : forall (A : Type) (ops : list (qop A)),
  buffers_ok ops ->
  let '(s', out, inp) := wq_run wq_init ops in
  out ++ remaining s' = inp /\ (remaining s' = [] -> out = inp).
Proof. intros A. exact executed_is_schedule. Qed.
Print Assumptions C03_writer_executes_the_schedule.

(* queue + batch execution (stable sort inside a batch): at every moment the executed events are a prefix of the
   schedule and the disk holds, for every page, the last write of that prefix *)
Theorem C03_writer_executes_a_prefix_of_the_schedule : forall ops : list (qop wmsg),
  buffers_ok ops ->
  let '(s', out, inp) := wq_run wq_init ops in
  (exists rest, inp = out ++ rest) /\
  (forall d p, run_cmds d (wq_cmds wq_init ops) p = spec_disk d (writes_of out) p) /\
  (remaining s' = [] -> out = inp).
Proof. exact writer_executes_a_prefix_of_the_schedule. Qed.
Print Assumptions C03_writer_executes_a_prefix_of_the_schedule.

(* false for the variant that tests "sync due" against all queued writes and clamps to the buffer afterwards *)
Theorem C03_late_clamp_refuted : exists ops,
  buffers_ok ops /\
  let '(s', out, inp) := wq_run_late wq_init ops in
  remaining s' = [] /\ out <> inp /\ inp = [EW 1; EW 2; EW 3; ES]%nat /\ out = [EW 1; EW 2; ES; EW 3]%nat.
Proof. exact late_clamp_refuted. Qed.
Print Assumptions C03_late_clamp_refuted.
