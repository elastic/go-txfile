(* A file that extends beyond its size limit (the limit was lowered on open, or the data end marker sits in a
   former overflow area): what the allocator may still do.
   - releaseOverflowPages gives back exactly a run of free pages that ends at the end marker and lies at or
     beyond the limit;
   - the tail of fileCommitAlloc (commit_ends) never moves the end of the file below a page that is in use.
   The two defects found at this point (D17, D18) are kept as refuted statements about the old definitions. *)
From VF Require Import Region Freelist Alloc RegionProofs AllocProofs.
From Coq Require Import Lia ZifyBool.

Lemma release_rev_spec : forall l lo ostart oend rl t,
  wfl lo l -> (forall id, inl id l -> id < oend) -> ostart <= oend ->
  release_rev (rev l) ostart oend = (rl, t) ->
  released lo l oend (rev rl) t /\ ostart <= oend - t.
Proof.
  induction l as [|r pre IH] using rev_ind; intros lo ostart oend rl t W Hlt Hse E.
  { injection E as <- <-. split; [apply released_none; assumption | lia]. }
  rewrite rev_unit in E. cbn [release_rev] in E.
  destruct (rend r <? oend) eqn:E1.
  { injection E as <- <-. cbn [rev]. rewrite rev_involutive. split; [apply released_none; assumption | lia]. }
  destruct (wfl_snoc_inv _ _ _ W) as (Wp & Hpre & Hc & Hlo).
  assert (Hre: rend r = oend) by (assert (rend r - 1 < oend) by (apply Hlt, inl_app; right; apply inl_single; rlia); lia).
  subst oend. destruct (rid r <? ostart) eqn:E2.
  - (* the last region is cut at ostart *)
    injection E as <- <-. cbn [rev]. rewrite rev_involutive. split; [|lia].
    replace (rend r - ostart) with (rcount r - (ostart - rid r)) by rlia.
    apply released_last with (k := ostart - rid r); [exact W | rlia | right; split; [lia | reflexivity]].
  - (* the last region goes, the release continues below it *)
    destruct (release_rev (rev pre) ostart (rid r)) as [tl' t0] eqn:Er. injection E as <- <-.
    destruct (IH lo ostart (rid r) tl' t0 Wp Hpre ltac:(lia) Er) as (R & Hs). split; [|rlia].
    rewrite Z.add_comm. apply released_trans with pre; [|replace (rend r - rcount r) with (rid r) by rlia; exact R].
    replace (rcount r) with (rcount r - 0) by lia. apply released_last with (k := 0); [exact W | lia | left; split; reflexivity].
Qed.

Lemma release_overflow_released l lo mx e l' t :
  wfl lo l -> (forall id, inl id l -> id < e) -> release_overflow l mx e = (l', t) ->
  released lo l e l' t /\ (0 < t -> mx <> 0 /\ mx <= e - t).
Proof.
  intros W Hlt. unfold release_overflow. destruct (_ || _) eqn:E0.
  - intros [= <- <-]. split; [apply released_none; assumption | lia].
  - destruct (release_rev (rev l) mx e) as [rl t0] eqn:Er. intros [= <- <-].
    destruct (release_rev_spec l lo mx e rl t0 W Hlt ltac:(lia) Er). split; [assumption | lia].
Qed.

(* the released pages are a run of free pages [e - t, e) at or beyond the limit; all other free pages stay *)
Theorem release_overflow_spec l lo mx e l' t :
  wfl lo l -> (forall id, inl id l -> id < e) ->
  release_overflow l mx e = (l', t) ->
  0 <= t /\ (0 < t -> mx <> 0 /\ mx <= e - t) /\ wfl lo l' /\
  (forall id, inl id l' <-> inl id l /\ id < e - t) /\
  (forall id, e - t <= id < e -> inl id l) /\
  count_pages l' = count_pages l - t.
Proof. intros W Hlt E. destruct (release_overflow_released l lo mx e l' t W Hlt E) as [R Hmx]. unfold released in R. tauto. Qed.

(* newData / newMeta: the free lists the commit is about to persist (old free lists + pages freed by the
   transaction). A page below the end of the file that is in neither list is in use. *)
Section CommitEnds.
Variables (newData newMeta : regions) (mx dEnd mEnd lo : Z).
Hypothesis Wd : wfl lo newData.
Hypothesis Wm : wfl lo newMeta.
Hypothesis Hdis : disjoint_l newData newMeta.
Hypothesis Hdlt : forall id, inl id newData -> id < dEnd.
Hypothesis Hmlt : forall id, inl id newMeta -> id < mEnd.
Hypothesis Hends : dEnd <= mEnd.

Theorem commit_ends_spec metaList dataList dEnd2 mEnd2 ovfFreed dataFreedN :
  commit_ends newData newMeta mx dEnd mEnd = (metaList, dataList, dEnd2, mEnd2, ovfFreed, dataFreedN) ->
  let fileEnd := Z.max dEnd2 mEnd2 in
  (forall id, inl id metaList <-> inl id newMeta /\ id < mEnd - ovfFreed) /\
  (forall id, inl id dataList -> inl id newData) /\
  (forall id, inl id newData -> inl id dataList \/ fileEnd <= id) /\
  (forall id, mEnd - ovfFreed <= id < mEnd -> inl id newMeta) /\
  (forall id, id < mEnd -> ~ inl id newData -> ~ inl id newMeta -> id < fileEnd) /\
  (forall id, inl id dataList -> id < dEnd2) /\
  (forall id, inl id metaList -> id < fileEnd) /\
  wfl lo metaList /\ wfl lo dataList /\
  fileEnd <= mEnd /\ (fileEnd < mEnd -> mx <> 0 /\ mx <= fileEnd) /\
  0 <= ovfFreed /\ 0 <= dataFreedN.
Proof using Wd Wm Hdis Hdlt Hmlt Hends.
  unfold commit_ends.
  (* first the free meta pages at the end of the file go: the file then ends at F1 *)
  destruct (release_overflow newMeta mx mEnd) as [ml of_] eqn:Em.
  destruct (release_overflow_released _ lo _ _ _ _ Wm Hmlt Em) as [R1 Hofmx]. pose proof R1 as (Hof & Wml & Hmset & Hmrun & _).
  set (newEnd := mEnd - of_) in *.
  set (dEnd1 := if (0 <? of_) && (dEnd <? mEnd) then newEnd else dEnd).
  (* the two markers without the conditionals *)
  replace (if 0 <? of_ then newEnd else mEnd) with newEnd by (unfold newEnd; destruct (0 <? of_) eqn:E; lia).
  assert (Hd1: dEnd1 = dEnd \/ dEnd < mEnd /\ dEnd1 = newEnd)
    by (unfold dEnd1; destruct (0 <? of_); destruct (dEnd <? mEnd) eqn:E; cbn [andb]; lia).
  clearbody dEnd1. set (F1 := Z.max dEnd1 newEnd).
  assert (Hdl1: forall id, inl id newData -> id < dEnd1).
  { intros id H. pose proof (Hdlt _ H). pose proof (released_not_in _ _ _ _ _ id R1 (Hdis id H)). lia. }
  assert (Hu1: forall id, id < mEnd -> ~ inl id newMeta -> id < F1).
  { intros id Hid Hn. pose proof (released_not_in _ _ _ _ _ id R1 Hn Hid). lia. }
  (* then, unless an overflow area follows the data area, the free data pages at the end of the file *)
  assert (exists dl df, (if newEnd <=? dEnd1 then release_overflow newData mx dEnd1 else (newData, 0)) = (dl, df) /\
            released lo newData dEnd1 dl df /\ (0 < df -> F1 = dEnd1 /\ mx <> 0 /\ mx <= dEnd1 - df))
    as (dl & df & -> & R2 & Hdfmx).
  { destruct (newEnd <=? dEnd1) eqn:Eg.
    - destruct (release_overflow newData mx dEnd1) as [dl df] eqn:Ed. exists dl, df.
      destruct (release_overflow_released _ lo _ _ _ _ Wd Hdl1 Ed). split_all; [reflexivity | assumption | lia].
    - exists newData, 0. split_all; [reflexivity | apply released_none; assumption | lia]. }
  pose proof R2 as (Hdf & Wdl & Hdset & _).
  intros [= <- <- <- <- <- <-]. cbv zeta.
  (* the file ends at F1 - df *)
  replace (Z.max _ _) with (F1 - df) by (destruct (0 <? df) eqn:E1; destruct (dEnd1 - df <=? newEnd) eqn:E2; cbn [andb]; lia).
  split_all; try assumption; try lia.
  - intros id H. apply Hdset, H.
  - intros id H. destruct (Z.lt_ge_cases id (dEnd1 - df)); [left; apply Hdset; split; assumption | right; specialize (Hdl1 id H); lia].
  - intros id Hid Hnd Hnm. specialize (Hu1 id Hid Hnm). pose proof (released_not_in _ _ _ _ _ id R2 Hnd). lia.
  - intros id H. apply Hdset, H.
  - intros id H. apply Hmset in H as [H Hid]. pose proof (released_not_in _ _ _ _ _ id R2 (fun Hd => Hdis id Hd H)). lia.
Qed.
End CommitEnds.

(* D18: the tail of fileCommitAlloc before its repair *)
Definition commit_ends_old (newData newMeta : regions) (mx dEnd mEnd : Z) : regions * regions * Z * Z * Z * Z :=
  let '(metaList, ovfFreed) := release_overflow newMeta mx mEnd in
  let newEnd := mEnd - ovfFreed in
  let dEnd1 := if (0 <? ovfFreed) && (dEnd <? mEnd) then newEnd else dEnd in
  let mEnd1 := if 0 <? ovfFreed then newEnd else mEnd in
  let '(dataList, dataFreedN) := release_overflow newData mx dEnd1 in
  let dEnd2 := dEnd1 - dataFreedN in
  let mEnd2 := if (0 <? dataFreedN) && (dEnd2 <=? mEnd1) then dEnd2 else mEnd1 in
  (metaList, dataList, dEnd2, mEnd2, ovfFreed, dataFreedN).

(* limit 128 pages, data area [2,129), page 129 in use in the overflow area, page 128 freed by the transaction:
   the old code moved both end markers to 128 and left page 129 outside the file *)
Theorem commit_ends_old_refuted : exists newData newMeta mx dEnd mEnd,
  wfl 2 newData /\ wfl 2 newMeta /\ disjoint_l newData newMeta /\
  (forall id, inl id newData -> id < dEnd) /\ (forall id, inl id newMeta -> id < mEnd) /\ dEnd <= mEnd /\
  let '(_, _, dEnd2, mEnd2, _, _) := commit_ends_old newData newMeta mx dEnd mEnd in
  exists id, id < mEnd /\ ~ inl id newData /\ ~ inl id newMeta /\ ~ id < Z.max dEnd2 mEnd2.
Proof.
  exists [{| rid := 128; rcount := 1 |}], [], 128, 129, 130.
  assert (H128: forall id, inl id [{| rid := 128; rcount := 1 |}] -> id = 128).
  { intros id H%inl_single. unfold inr, rend in H. cbn in H. lia. }
  split_all; try lia.
  - constructor; cbn; try lia; constructor.
  - constructor.
  - intros id _ H. destruct (inl_nil _ H).
  - intros id H%H128. lia.
  - intros id H. destruct (inl_nil _ H).
  - assert (E: commit_ends_old [{| rid := 128; rcount := 1 |}] [] 128 129 130 = ([], [], 128, 128, 0, 1)) by (vm_compute; reflexivity).
    rewrite E. exists 129. split_all; try lia; [intros H%H128; lia | apply inl_nil].
Qed.

(* D17: the old contiguous allocation computed maxPages - endMarker in unsigned 64-bit arithmetic *)
Definition data_area_avail_old (a : allocst) : Z := (maxPages a - a_end (data a)) mod 2^64.

Theorem data_area_avail_old_refuted : exists a,
  0 < maxPages a /\ maxPages a < a_end (data a) /\ 1 <= data_area_avail_old a.
Proof.
  exists {| maxPages := 128; pageSize := 1024; meta := {| a_end := 187; a_free := {| avail := 0; fregions := [] |} |};
            metaTotal := 6; data := {| a_end := 185; a_free := {| avail := 0; fregions := [] |} |}; flRoot := 186; flPages := [] |}.
  cbn [maxPages data a_end]. split; [lia|]. split; [lia|]. vm_compute. discriminate.
Qed.

(* the repaired tail on the state of commit_ends_old_refuted: nothing is released, page 129 stays inside *)
Example commit_ends_ex :
  commit_ends [{| rid := 128; rcount := 1 |}] [] 128 129 130 = ([], [{| rid := 128; rcount := 1 |}], 129, 130, 0, 0) /\
  (* no overflow area behind the data area: the free pages past the limit are released *)
  commit_ends [{| rid := 126; rcount := 4 |}] [{| rid := 100; rcount := 2 |}] 128 130 130
    = ([{| rid := 100; rcount := 2 |}], [{| rid := 126; rcount := 2 |}], 128, 128, 0, 2).
Proof. split; vm_compute; reflexivity. Qed.
