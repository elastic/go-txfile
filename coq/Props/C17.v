(* C17 -- Queue counters and callbacks agree with the event history. *)
From VF Require Import PQ PQProofs.
From Coq Require Import Lia.

Theorem C17_counters : forall q, aq_ok q ->
  aq_pending q = (aq_tail_id q - aq_read_id q)%nat /\ length (aq_contents q) = aq_pending q.
Proof. exact aq_counters. Qed.
Print Assumptions C17_counters.

Theorem C17_invariant_for_every_history : forall ops q, aq_ok q -> aq_ok (aq_run q ops).
Proof. exact aq_run_ok. Qed.

(* Pending after any history = flushed - ACKed, where refused ACKs do not count *)
Theorem C17_pending_after_ack : forall q n, aq_ok q -> (n <= aq_pending q)%nat ->
  aq_pending (aq_step q (AAck n)) = (aq_pending q - n)%nat.
Proof. intros q n H1 H2. apply (aq_ack_drops_oldest q n H1 H2). Qed.

Theorem C17_pending_after_flush : forall q,
  aq_pending (aq_step q AFlush) = (aq_pending q + length (q_buffered q))%nat \/ (length (q_flushed q) < q_acked q)%nat.
Proof.
  intros q. unfold aq_pending. cbn. rewrite app_length.
  destruct (Nat.le_gt_cases (q_acked q) (length (q_flushed q))); [left|right]; lia.
Qed.

Example C17_ex : aq_pending (aq_run aq_empty [AAppend [1]; AAppend [2]; AFlush; AAck 5; AAck 1]) = 1%nat.
Proof. reflexivity. Qed.

(* ---- what the Flushed callback reports, on the writer model (Model/PQWriter.v; Proofs/PQWriterCountProofs.v). flushBuffer
   invokes the callback with the number of events completed since the last successful flush whenever doFlush does not
   fail - also when it found nothing to write. For EVERY run of Write / Next / Flush calls and every flush outcome,
   followed by a Next or Flush whose flush does not fail: the callbacks reported so far add up to exactly the number of
   completed events, nothing is left to report, and exactly these events are what the reader's parser finds in the page
   payloads as written to the file. The case "nothing to write" needs an invariant of the buffer (the open header lives
   in the first or second buffer page, or the head page is dirty): a clean head page means everything is written. ---- *)
From VF Require Import PQWriter PQWriterProofs PQWriterCountProofs.
Theorem C17_flushed_callbacks_report_the_published_events : forall PS, (hdr_len <= payload PS)%nat ->
  forall pages tail endId root ops o,
  match tail with Some t => (length (wp_data t) <= payload PS)%nat /\ wp_dirty t = false /\ wp_disk t = Some (wp_data t) | None => True end ->
  let base := match tail with Some t => wp_data t | None => [] end in
  let '(s1, rs) := w_run PS (w_init PS pages tail endId root) ops in
  let '(s2, r) := w_step PS s1 o in
  let '(done, cur) := spec_step (spec_run ([], []) ops rs) o r in
  match o, r with
  | WNext _, WOk (Some _) | WFlush _, WOk (Some _) =>
      (cb_total rs + cb_of r = Z.of_nat (length done))%Z /\ ws_active s2 = 0%Z /\
      (Forall (fun e => Z.of_nat (length e) < 256 ^ Z.of_nat hdr_len)%Z done ->
       exists i off, b_hdr (ws_buf s2) = Some (i, off) /\
         parse_from (payload PS) (flat (payload PS) (map disk_data (cores (ws_hist s2 ++ firstn (S i) (b_pages (ws_buf s2))))))
                    (length base) (length done) = Some done)
  | _, _ => True
  end.
Proof. exact flushed_callbacks_report_the_published_events. Qed.
Print Assumptions C17_flushed_callbacks_report_the_published_events.

(* the tail id a successful flush stores in the queue root is the id of the next event to be written, i.e. the first id of
   the session plus the number of completed events: Pending = tail id - read id counts exactly the published events *)
From VF Require Import PQWriterHeaderProofs.
Theorem C17_persisted_tail_id_counts_the_published_events : forall PS, (hdr_len <= payload PS)%nat ->
  forall pages tail endId root ops o,
  match tail with Some t => (length (wp_data t) <= payload PS)%nat | None => True end ->
  let '(s1, rs) := w_run PS (w_init PS pages tail endId root) ops in
  let '(s2, r) := w_step PS s1 o in
  let '(done, cur) := spec_step (spec_run ([], []) ops rs) o r in
  match o, r with
  | WNext _, WOk (Some (FDone _ _ _, _)) | WFlush _, WOk (Some (FDone _ _ _, _)) =>
      snd (q_tail (ws_root s2)) = (endId + Z.of_nat (length done))%Z
  | _, _ => True
  end.
Proof.
  intros PS HP pages tail endId root ops o Ht.
  pose proof (w_run_step_lift PS _ _ (HI_kept PS HP endId _) ops o _ [] []
    (conj (w_init_SI PS HP pages tail endId root Ht) (w_init_HInv PS pages tail endId root))) as H.
  destruct (w_run PS (w_init PS pages tail endId root) ops) as [s1 rs]. destruct (w_step PS s1 o) as [s2 r].
  destruct (spec_step (spec_run ([], []) ops rs) o r) as [done cur]. destruct H as [[_ [Hid _]] HQ].
  destruct o; [exact I| |]; destruct r as [[[[] cb]|]|]; try exact I; exact (eq_trans HQ Hid).
Qed.
Print Assumptions C17_persisted_tail_id_counts_the_published_events.
