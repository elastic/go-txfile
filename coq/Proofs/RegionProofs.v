(* region.go / freelist.go: region lists read as sets of page ids. Every operation on a list is specified by
   the set of ids and the page count it leaves (through same_pages where it only rearranges); then the same for
   sorted id lists (pageSet) and their translation into regions, and last for a free list with its counter (wff). *)
From VF Require Import Region Freelist.
From Coq Require Import Lia ZifyBool.

Definition inr (id : Z) (r : region) : Prop := rid r <= id < rend r.
Definition inl (id : Z) (l : regions) : Prop := exists r, In r l /\ inr id r.

(* adjacent regions are allowed: a list need not be merged; the bound on the count is the uint32 of the source *)
Inductive wfl : Z -> regions -> Prop :=
| wfl_nil lo : wfl lo []
| wfl_cons lo r l : lo <= rid r -> 0 < rcount r < 2^32 -> wfl (rend r) l -> wfl lo (r :: l).

Ltac rlia := unfold inr, rend in *; cbn [rid rcount]; lia.

(* unlike [repeat split] it leaves <->, = and predicates defined as conjunctions alone *)
Ltac split_all := repeat match goal with |- _ /\ _ => split end.

Lemma inl_nil id : ~ inl id [].
Proof. intros [r [[] _]]. Qed.

Lemma inl_cons id r l : inl id (r :: l) <-> inr id r \/ inl id l.
Proof.
  split.
  - intros [x [[->|Hin] Hr]]; [left; exact Hr | right; exists x; auto].
  - intros [H|[x [Hin Hr]]]; [exists r | exists x]; cbn [In]; auto.
Qed.

Lemma inl_nil_r id (P : Prop) : P \/ inl id [] <-> P.
Proof. split; [intros [H|H]; [exact H | destruct (inl_nil _ H)] | left; assumption]. Qed.

Lemma inl_single id r : inl id [r] <-> inr id r.
Proof. rewrite inl_cons. apply inl_nil_r. Qed.

Lemma inl_app id a b : inl id (a ++ b) <-> inl id a \/ inl id b.
Proof.
  induction a as [|r a IH]; cbn [app].
  - rewrite or_comm, inl_nil_r. reflexivity.
  - rewrite !inl_cons, IH. symmetry. apply or_assoc.
Qed.

Lemma wfl_inv lo r l : wfl lo (r :: l) -> lo <= rid r /\ 0 < rcount r < 2^32 /\ wfl (rend r) l.
Proof. inversion 1. auto. Qed.

Lemma wfl_weaken lo lo' l : lo' <= lo -> wfl lo l -> wfl lo' l.
Proof. intros H W. destruct W; constructor; auto; lia. Qed.

Lemma wfl_lower lo l id : wfl lo l -> inl id l -> lo <= id.
Proof.
  intros W. revert id. induction W as [|lo r l Hlo Hc W IH]; intros id H.
  - destruct (inl_nil _ H).
  - apply inl_cons in H as [H|H]; [|apply IH in H]; rlia.
Qed.

Lemma wfl_head_not_in_tail lo r l id : wfl lo (r :: l) -> inr id r -> ~ inl id l.
Proof. intros W Hr Hl. apply wfl_inv in W as (_ & _ & W). apply (wfl_lower _ _ _ W) in Hl. rlia. Qed.

Lemma wfl_in lo l r : wfl lo l -> In r l -> lo <= rid r /\ 0 < rcount r < 2^32.
Proof.
  induction 1 as [|lo r0 l Hlo Hc W IH]; cbn [In]; [tauto|].
  intros [<-|Hin]; [tauto|]. apply IH in Hin. rlia.
Qed.

Lemma wfl_app lo a b : wfl lo (a ++ b) <->
  exists hi, lo <= hi /\ wfl lo a /\ (forall id, inl id a -> id < hi) /\ wfl hi b.
Proof.
  revert lo. induction a as [|r a IH]; intros lo; cbn [app].
  - split.
    + intros W. exists lo. split; [lia|]. split; [constructor|]. split; [|exact W]. intros id H. destruct (inl_nil _ H).
    + intros (hi & Hle & _ & _ & W). apply wfl_weaken with hi; assumption.
  - split.
    + intros W. apply wfl_inv in W as (Hlo & Hc & W). apply IH in W as (hi & Hle & Wa & Hlt & Wb).
      exists hi. split; [rlia|]. split; [constructor; assumption|]. split; [|exact Wb].
      intros id H. apply inl_cons in H as [H|H]; [rlia | auto].
    + intros (hi & Hle & Wa & Hlt & Wb). apply wfl_inv in Wa as (Hlo & Hc & Wa).
      constructor; [assumption..|]. apply IH. exists hi. split; [|split; [exact Wa|split; [|exact Wb]]].
      * assert (rend r - 1 < hi) by (apply Hlt, inl_cons; left; rlia). lia.
      * intros id H. apply Hlt, inl_cons. right. exact H.
Qed.

Lemma wfl_snoc : forall l lo e c, wfl lo l -> (forall id, inl id l -> id < e) -> lo <= e -> 0 < c < 2^32 ->
  wfl lo (l ++ [{| rid := e; rcount := c |}]).
Proof. intros l lo e c W Hlt Hlo Hc. apply wfl_app. exists e. repeat split; auto. constructor; [cbn; lia..|constructor]. Qed.

Lemma wfl_snoc_inv : forall pre lo lr, wfl lo (pre ++ [lr]) ->
  wfl lo pre /\ (forall x, inl x pre -> x < rid lr) /\ 0 < rcount lr < 2^32 /\ lo <= rid lr.
Proof.
  intros pre lo lr W. apply wfl_app in W as (hi & Hle & Wp & Hlt & W). apply wfl_inv in W as (Hhi & Hc & _).
  split; [exact Wp|]. split; [|lia]. intros x H. apply Hlt in H. lia.
Qed.

Lemma count_pages_acc l : forall acc, fold_left (fun a r => a + rcount r) l acc = acc + count_pages l.
Proof.
  unfold count_pages. induction l as [|r l IH]; intros acc; cbn [fold_left]; [lia|].
  rewrite IH, (IH (0 + rcount r)). lia.
Qed.
Lemma count_pages_cons r l : count_pages (r :: l) = rcount r + count_pages l.
Proof. unfold count_pages at 1. cbn [fold_left]. rewrite count_pages_acc. lia. Qed.
Lemma count_pages_nil : count_pages [] = 0. Proof. reflexivity. Qed.
Lemma count_pages_app a b : count_pages (a ++ b) = count_pages a + count_pages b.
Proof. induction a as [|r a IH]; cbn [app]; [rewrite count_pages_nil; lia|]. rewrite !count_pages_cons, IH. lia. Qed.
Lemma count_pages_nonneg lo l : wfl lo l -> 0 <= count_pages l.
Proof. induction 1; [rewrite count_pages_nil; lia | rewrite count_pages_cons; lia]. Qed.

(* Asymmetric on purpose: only l' has to be well formed, l is a mere collection of regions in any order. Every
   operation that rearranges a free list without changing its content is specified in this form. *)
Definition same_pages (lo : Z) (l l' : regions) : Prop :=
  wfl lo l' /\ (forall id, inl id l' <-> inl id l) /\ count_pages l' = count_pages l.

Lemma same_refl lo l : wfl lo l -> same_pages lo l l.
Proof. intros W. split; [exact W|]. split; [tauto | reflexivity]. Qed.

Lemma same_trans lo a b c : same_pages lo a b -> same_pages lo b c -> same_pages lo a c.
Proof.
  intros (_ & S1 & C1) (W & S2 & C2). split; [exact W|].
  split; [intros id; rewrite S2; apply S1 | congruence].
Qed.

Lemma same_cons lo r l l' : lo <= rid r -> 0 < rcount r < 2^32 ->
  same_pages (rend r) l l' -> same_pages lo (r :: l) (r :: l').
Proof.
  intros Hlo Hc (W & S & C). split; [constructor; assumption|].
  split; [intros id; rewrite !inl_cons, S; tauto | rewrite !count_pages_cons, C; reflexivity].
Qed.

Lemma same_move lo a y b l' : same_pages lo (y :: a ++ b) l' -> same_pages lo (a ++ y :: b) l'.
Proof.
  intros (W & S & C). split; [exact W|]. split.
  - intros id. rewrite S, inl_cons, !inl_app, inl_cons. tauto.
  - rewrite C, count_pages_cons, !count_pages_app, count_pages_cons. lia.
Qed.

Lemma same_split lo r r1 r2 l :
  rid r1 = rid r -> rid r2 = rend r1 -> 0 < rcount r1 -> 0 < rcount r2 -> rcount r1 + rcount r2 = rcount r ->
  wfl lo (r :: l) -> same_pages lo (r :: l) (r1 :: r2 :: l).
Proof.
  intros H1 H2 Hc1 Hc2 Hc W. apply wfl_inv in W as (Hlo & Hr & W). split.
  - constructor; [lia..|]. constructor; [lia..|]. replace (rend r2) with (rend r) by rlia. exact W.
  - split; [|rewrite !count_pages_cons; lia].
    intros id. rewrite !inl_cons, <- or_assoc. apply or_iff_compat_r. rlia.
Qed.

(* x ++ y: what fl_alloc_regions hands out and what it keeps *)
Lemma same_app_inv lo l x y : same_pages lo l (x ++ y) ->
  wfl lo x /\ wfl lo y /\ count_pages x + count_pages y = count_pages l /\
  (forall id, inl id l <-> inl id x \/ inl id y) /\ (forall id, inl id x -> ~ inl id y).
Proof.
  intros (W & S & C). apply wfl_app in W as (hi & Hle & Wx & Hlt & Wy).
  split; [exact Wx|]. split; [apply wfl_weaken with hi; assumption|].
  split; [rewrite <- C; symmetry; apply count_pages_app|].
  split; [intros id; rewrite <- S; apply inl_app|].
  intros id Hx Hy. apply Hlt in Hx. apply (wfl_lower _ _ _ Wy) in Hy. lia.
Qed.

Lemma region_eta r i c : i = rid r -> c = rcount r -> {| rid := i; rcount := c |} = r.
Proof. intros -> ->. destruct r. reflexivity. Qed.

Lemma take_front_spec : forall l lo N a rest,
  wfl lo l -> 0 < N <= count_pages l -> take_front l N = (a, rest) ->
  same_pages lo l (a ++ rest) /\ count_pages a = N.
Proof.
  induction l as [|r l IH]; intros lo N a rest W HN E; [rewrite count_pages_nil in HN; lia|].
  rewrite count_pages_cons in HN. cbn [take_front] in E.
  pose proof (wfl_inv _ _ _ W) as (Hlo & Hc & Wl).
  destruct (N <=? rcount r) eqn:EN.
  - injection E as <- <-. split; [|rewrite count_pages_cons, count_pages_nil; cbn; lia].
    destruct (rcount r - N =? 0) eqn:Ez; cbn [app].
    + rewrite (region_eta r) by lia. apply same_refl, W.
    + apply same_split; [unfold rend; cbn; lia.. | exact W].
  - destruct (take_front l (N - rcount r)) as [a' rest'] eqn:E'. injection E as <- <-.
    destruct (IH (rend r) (N - rcount r) a' rest' Wl ltac:(lia) E') as [S C].
    split; [apply same_cons; assumption | rewrite count_pages_cons; lia].
Qed.

Lemma take_back_spec : forall l lo N a k,
  wfl lo l -> 0 < N <= count_pages l -> take_back l N = (a, k) ->
  same_pages lo l (k ++ a) /\ count_pages a = N.
Proof.
  induction l as [|r l IH]; intros lo N a k W HN E; [rewrite count_pages_nil in HN; lia|].
  rewrite count_pages_cons in HN. cbn [take_back] in E.
  pose proof (wfl_inv _ _ _ W) as (Hlo & Hc & Wl).
  destruct (N <=? count_pages l) eqn:EN.
  - destruct (take_back l N) as [a' k'] eqn:E'. injection E as <- <-.
    destruct (IH (rend r) N a' k' Wl ltac:(lia) E') as [S C].
    split; [apply same_cons; assumption | exact C].
  - injection E as <- <-. split; [|rewrite count_pages_cons; cbn; lia].
    destruct (rcount r - (N - count_pages l) =? 0) eqn:Ez; cbn [app].
    + rewrite (region_eta r) by lia. apply same_refl, W.
    + apply same_split; [unfold rend; cbn; lia.. | exact W].
Qed.

Lemma mergeable_spec a b : rid a < rid b -> 0 < rcount a < 2^32 -> 0 < rcount b < 2^32 ->
  mergeable a b = true -> rend a = rid b /\ rcount a + rcount b < 2^32.
Proof.
  intros Hlt Ha Hb. unfold mergeable.
  replace (rid a <? rid b) with true by lia.
  intros H. apply andb_prop in H as [H1 H2]. split; [lia|].
  destruct (Z_lt_ge_dec (rcount a + rcount b) (2^32)) as [|Hge]; [assumption|].
  exfalso. assert ((rcount a + rcount b) mod 2^32 = rcount a + rcount b - 2^32).
  { symmetry. apply Z.mod_unique with 1; lia. }
  lia.
Qed.

Lemma mergeable_sym a b : rid a <> rid b -> mergeable a b = mergeable b a.
Proof.
  intros Hne. unfold mergeable.
  destruct (rid a <? rid b) eqn:E1, (rid b <? rid a) eqn:E2; try reflexivity; lia.
Qed.

Lemma merge_spec a b : rend a = rid b -> 0 <= rcount a -> 0 <= rcount b -> rcount a + rcount b < 2^32 ->
  rid (merge a b) = rid a /\ rcount (merge a b) = rcount a + rcount b /\ rend (merge a b) = rend b.
Proof.
  intros H Ha Hb Hs. unfold merge, rend in *. cbn. rewrite Z.mod_small by lia. lia.
Qed.

Lemma same_merge lo a b l : wfl lo (a :: b :: l) -> mergeable a b = true ->
  same_pages lo (a :: b :: l) (merge a b :: l).
Proof.
  intros W Em. apply wfl_inv in W as (Hlo & Ha & W). apply wfl_inv in W as (Hab & Hb & W).
  apply mergeable_spec in Em as [Hadj Hsum]; [|rlia|lia|lia].
  destruct (merge_spec a b Hadj ltac:(lia) ltac:(lia) Hsum) as (Mi & Mc & Me). split.
  - constructor; [lia..|]. rewrite Me. exact W.
  - split; [|rewrite !count_pages_cons; lia].
    intros id. rewrite !inl_cons, <- or_assoc. apply or_iff_compat_r. rlia.
Qed.

Lemma region_before reg r l : In r l -> 0 < rcount reg -> 0 < rcount r ->
  (forall id, inr id reg -> ~ inl id l) -> rid reg < rend r -> rend reg <= rid r.
Proof.
  intros Hin Hc Hcr Hdis Hlt. destruct (Z_le_gt_dec (rend reg) (rid r)) as [|Hgt]; [assumption|exfalso].
  apply (Hdis (Z.max (rid reg) (rid r))); [rlia|]. exists r. split; [exact Hin | rlia].
Qed.

(* freelist.AddRegion tries to merge the new region with its neighbour on either side: hence the four cases
   once its place between r and r2 is found *)
Lemma add_region_spec : forall l lo reg,
  wfl lo l -> lo <= rid reg -> 0 < rcount reg < 2^32 ->
  (forall id, inr id reg -> ~ inl id l) ->
  same_pages lo (reg :: l) (add_region_l l reg).
Proof.
  induction l as [|r l IH]; intros lo reg W Hlo Hc Hdis; cbn [add_region_l].
  - apply same_refl. constructor; [assumption..|constructor].
  - pose proof (wfl_inv _ _ _ W) as (Hlor & Hcr & Wl).
    destruct (rid reg <? rend r) eqn:E1.
    + assert (Hb: rend reg <= rid r) by (apply (region_before reg r (r :: l)); auto using in_eq; lia).
      assert (W1: wfl lo (reg :: r :: l)) by (constructor; [assumption..|]; constructor; assumption).
      destruct (mergeable reg r) eqn:Em; [apply same_merge | apply same_refl]; assumption.
    + apply (same_move lo [reg] r l). cbn [app].
      assert (Ha: rend r <= rid reg) by lia.
      assert (Hdisl: forall id, inr id reg -> ~ inl id l).
      { intros id H Hl. apply (Hdis id H), inl_cons. right. exact Hl. }
      destruct l as [|r2 tl].
      * assert (W1: wfl lo [r; reg]) by (constructor; [assumption..|]; constructor; [assumption..|constructor]).
        destruct (mergeable r reg) eqn:Em; [apply same_merge | apply same_refl]; assumption.
      * pose proof (wfl_inv _ _ _ Wl) as (Hlo2 & Hc2 & Wtl).
        destruct (rid reg <? rend r2) eqn:E2.
        -- assert (Hb: rend reg <= rid r2) by (apply (region_before reg r2 (r2 :: tl)); auto using in_eq; lia).
           assert (W2: wfl (rend r) (reg :: r2 :: tl)) by (constructor; [assumption..|]; constructor; assumption).
           assert (W1: wfl lo (r :: reg :: r2 :: tl)) by (constructor; assumption).
           destruct (mergeable r reg) eqn:Emb.
           ++ pose proof (same_merge _ _ _ _ W1 Emb) as M.
              destruct (mergeable (merge r reg) r2) eqn:Ema; [|exact M].
              apply (same_trans _ _ _ _ M), same_merge; [apply M | exact Ema].
           ++ destruct (mergeable reg r2) eqn:Ema; [|apply same_refl, W1].
              apply same_cons; [assumption..|]. apply same_merge; assumption.
        -- apply same_cons; [assumption..|]. apply IH; assumption.
Qed.

Definition removed (lo : Z) (l : regions) (rs re : Z) (l' : regions) (t : Z) : Prop :=
  wfl lo l' /\ (forall id, inl id l' <-> inl id l /\ ~ (rs <= id < re)) /\ count_pages l' = count_pages l - t /\ 0 <= t.

Lemma removed_none lo l rs re : wfl lo l -> (forall id, inl id l -> ~ rs <= id < re) -> removed lo l rs re l 0.
Proof. intros W H. unfold removed. split_all; [exact W | intros id; specialize (H id); tauto | lia | lia]. Qed.

(* One step of the removal of [rs, re) from cur :: tl: the pieces h of cur outside the range are kept, c pages of
   it go, and the walk goes on in the tail from rs', which is rs or a point between rs and the end of cur. *)
Lemma remove_step lo cur tl rs rs' re h c tl' t :
  wfl lo (cur :: tl) -> rs <= rs' /\ (rs' <= rs \/ rs' <= rend cur) ->
  wfl lo h -> (forall id, inl id h <-> inr id cur /\ ~ rs <= id < re) -> count_pages h = rcount cur - c -> 0 <= c ->
  removed (rend cur) tl rs' re tl' t -> removed lo (cur :: tl) rs re (h ++ tl') (t + c).
Proof.
  intros W Hrs Wh Hh Hc Hc0 (W' & Ht & Hcnt & Ht0). apply wfl_inv in W as (Hlo & Hcc & W). unfold removed. split_all.
  - apply wfl_app. exists (rend cur). split_all; [rlia | exact Wh | intros id H; apply Hh in H; rlia | exact W'].
  - intros id. pose proof (wfl_lower _ _ id W) as Hlow. rewrite inl_app, inl_cons, Hh, Ht. clear - Hrs Hlow.
    assert (X: inl id tl -> (rs' <= id < re <-> rs <= id < re)) by (intros H; apply Hlow in H; lia).
    (* the ranges are conjunctions, which tauto would take apart *)
    revert X. generalize (rs' <= id < re) (rs <= id < re). tauto.
  - rewrite count_pages_app, count_pages_cons. lia.
  - lia.
Qed.

Lemma remove_range_spec : forall l lo rs re l' t, wfl lo l -> remove_range l rs re = (l', t) -> removed lo l rs re l' t.
Proof.
  induction l as [|cur tl IH]; intros lo rs re l' t W E; cbn [remove_range] in E.
  - injection E as <- <-. apply removed_none; [exact W | intros id H; destruct (inl_nil _ H)].
  - pose proof (wfl_inv _ _ _ W) as (Hlo & Hc & Wtl).
    destruct (re <=? Z.max rs (rid cur)) eqn:E1.
    { (* the two early returns of remove_range in one test: the range is empty or ends before cur *)
      assert (E': (cur :: tl, 0) = (l', t)) by (destruct (re <=? rs); exact E). injection E' as <- <-.
      assert (W0: wfl (rid cur) (cur :: tl)) by (constructor; [lia | assumption..]).
      apply removed_none; [exact W|]. intros id H. apply (wfl_lower _ _ id W0) in H. lia. }
    assert (Hre: rs < re /\ rid cur < re) by lia. replace (re <=? rs) with false in E by lia. clear E1.
    (* Each branch determines the maxima and minima: they are replaced by their values and the tests by what
       they say, so that lia meets linear facts only. *)
    set (rs1 := Z.max rs (rid cur)) in *.
    destruct (rs1 =? rid cur) eqn:E2.
    + (* the range covers the beginning of cur *)
      assert (rs1 = rid cur /\ rs <= rid cur) as [-> Hrs] by lia. clear E2.
      set (c := Z.min (re - rid cur) (rcount cur)) in *.
      destruct (remove_range tl (rid cur + c) re) as [tl' t'] eqn:Er. apply (IH (rend cur)) in Er; [|exact Wtl].
      cbn [rcount] in E. destruct (rcount cur - c =? 0) eqn:Ez; injection E as <- <-.
      * assert (c = rcount cur /\ rend cur <= re) as [Ec Hc'] by rlia. clearbody c. subst c. clear Ez.
        apply (remove_step lo cur tl rs (rid cur + rcount cur) re [] (rcount cur));
          [exact W | rlia | constructor | | rewrite count_pages_nil; lia | lia | exact Er].
        intros id. pose proof (inl_nil id). split; [tauto | rlia].
      * assert (c = re - rid cur /\ re < rend cur) as [Ec Hc'] by rlia. clearbody c. subst c. clear Ez.
        apply (remove_step lo cur tl rs (rid cur + (re - rid cur)) re [_] (re - rid cur));
          [exact W | rlia | constructor; [rlia..|constructor] | | rewrite count_pages_cons, count_pages_nil; cbn [rcount]; lia | lia | exact Er].
        intros id. rewrite inl_single. rlia.
    + (* the range starts behind the beginning of cur *)
      assert (rs1 = rs /\ rid cur < rs) as [-> Hrs] by lia. clear E2.
      destruct (rcount cur <=? rs - rid cur) eqn:E3.
      * (* and behind its end *)
        destruct (remove_range tl rs re) as [tl' t'] eqn:Er. apply (IH (rend cur)) in Er; [|exact Wtl]. injection E as <- <-.
        assert (Hc': rend cur <= rs) by rlia. clear E3. rewrite <- (Z.add_0_r t').
        apply (remove_step lo cur tl rs rs re [cur] 0);
          [exact W | rlia | constructor; [assumption..|constructor] | | rewrite count_pages_cons, count_pages_nil; lia | lia | exact Er].
        intros id. rewrite inl_single. rlia.
      * set (c := Z.min (re - rs) (rcount cur - (rs - rid cur))) in *.
        cbn [rcount] in E. destruct (0 <? rcount cur - (rs - rid cur) - c) eqn:E4.
        -- (* the range lies inside cur, which is cut in two *)
           injection E as <- <-.
           assert (c = re - rs /\ rs < rend cur /\ re < rend cur) as (Ec & Hc' & Hc'') by rlia. clearbody c. subst c. clear E3 E4.
           apply (remove_step lo cur tl rs re re [_; _] (re - rs) tl 0);
             [exact W | rlia | constructor; [rlia..|]; constructor; [rlia..|constructor] | | rewrite !count_pages_cons, count_pages_nil; cbn [rcount]; lia | lia | ].
           ++ intros id. rewrite inl_cons, inl_single. rlia.
           ++ apply removed_none; [exact Wtl | lia].
        -- (* the range covers the end of cur *)
           assert (c = rid cur + rcount cur - rs /\ rs < rid cur + rcount cur <= re) as [Ec Hc'] by lia. clearbody c. subst c. clear E3 E4.
           destruct (remove_range tl (rs + (rid cur + rcount cur - rs)) re) as [tl' t'] eqn:Er. apply (IH (rend cur)) in Er; [|exact Wtl]. injection E as <- <-.
           apply (remove_step lo cur tl rs (rs + (rid cur + rcount cur - rs)) re [_] (rid cur + rcount cur - rs));
             [exact W | rlia | constructor; [rlia..|constructor] | | rewrite count_pages_cons, count_pages_nil; cbn [rcount]; lia | lia | exact Er].
           intros id. rewrite inl_single. rlia.
Qed.

Lemma remove_range_above : forall l lo rs re, wfl lo l -> (forall id, inl id l -> id < rs) ->
  remove_range l rs re = (l, 0).
Proof.
  induction l as [|cur tl IH]; intros lo rs re W Hb; cbn [remove_range]; [reflexivity|].
  apply wfl_inv in W as (Hlo & Hc & Wtl).
  destruct (re <=? rs) eqn:E0; [reflexivity|].
  assert (Hcur: rend cur - 1 < rs) by (apply Hb, inl_cons; left; rlia).
  unfold rend in Hcur.
  replace (Z.max rs (rid cur)) with rs by lia. rewrite E0.
  replace (rs =? rid cur) with false by lia.
  replace (rcount cur <=? rs - rid cur) with true by lia.
  rewrite (IH (rend cur) rs re Wtl); [reflexivity|].
  intros id H. apply Hb, inl_cons. right. exact H.
Qed.

Lemma merge_adjacent_from_spec : forall l lo cur,
  wfl lo (cur :: l) -> same_pages lo (cur :: l) (merge_adjacent_from cur l).
Proof.
  induction l as [|r l IH]; intros lo cur W; cbn [merge_adjacent_from].
  - apply same_refl, W.
  - destruct (mergeable cur r) eqn:Em.
    + pose proof (same_merge _ _ _ _ W Em) as M. apply (same_trans _ _ _ _ M), IH, M.
    + apply wfl_inv in W as (Hlo & Hc & W). apply same_cons; auto.
Qed.

Lemma merge_adjacent_spec l lo : wfl lo l ->
  wfl lo (merge_adjacent l) /\ (forall id, inl id (merge_adjacent l) <-> inl id l) /\
  count_pages (merge_adjacent l) = count_pages l.
Proof. destruct l as [|r l]; [apply same_refl | apply merge_adjacent_from_spec]. Qed.

Definition disjoint_l (a b : regions) : Prop := forall id, inl id a -> inl id b -> False.

Lemma merge_sorted_nil_r a : merge_sorted a [] = a.
Proof. destruct a; reflexivity. Qed.

Lemma merge_sorted_cons x a y b :
  merge_sorted (x :: a) (y :: b) = if rid x <? rid y then x :: merge_sorted a (y :: b) else y :: merge_sorted (x :: a) b.
Proof. reflexivity. Qed.

Lemma merge_sorted_spec : forall a b lo,
  wfl lo a -> wfl lo b -> disjoint_l a b -> same_pages lo (a ++ b) (merge_sorted a b).
Proof.
  induction a as [|x a IHa].
  - intros b lo _ Wb _. replace (merge_sorted [] b) with b by (destruct b; reflexivity). apply same_refl, Wb.
  - induction b as [|y b IHb]; intros lo Wa Wb Hd.
    + rewrite merge_sorted_nil_r, app_nil_r. apply same_refl, Wa.
    + rewrite merge_sorted_cons.
      pose proof (wfl_inv _ _ _ Wa) as (Hlox & Hcx & Wa'). pose proof (wfl_inv _ _ _ Wb) as (Hloy & Hcy & Wb').
      destruct (rid x <? rid y) eqn:E.
      * assert (Hb: rend x <= rid y).
        { apply (region_before x y (y :: b)); [apply in_eq | lia | lia | | rlia].
          intros id Hx Hy. apply (Hd id); [apply inl_cons; left; exact Hx | exact Hy]. }
        apply same_cons; [assumption..|]. apply IHa; [exact Wa' | constructor; assumption |].
        intros id H Hy. apply (Hd id); [apply inl_cons; right; exact H | exact Hy].
      * assert (Hb: rend y <= rid x).
        { apply (region_before y x (x :: a)); [apply in_eq | lia | lia | | rlia].
          intros id Hy Hx. apply (Hd id); [exact Hx | apply inl_cons; left; exact Hy]. }
        apply (same_move lo (x :: a) y b). apply same_cons; [assumption..|].
        apply IHb; [constructor; assumption | exact Wb' |].
        intros id Hx H. apply (Hd id); [exact Hx | apply inl_cons; right; exact H].
Qed.

Theorem merge_region_lists_spec a b lo :
  wfl lo a -> wfl lo b -> disjoint_l a b ->
  wfl lo (merge_region_lists a b) /\
  (forall id, inl id (merge_region_lists a b) <-> inl id a \/ inl id b) /\
  count_pages (merge_region_lists a b) = count_pages a + count_pages b.
Proof.
  intros Wa Wb Hd. unfold merge_region_lists. pose proof (merge_sorted_spec a b lo Wa Wb Hd) as M.
  destruct (same_trans _ _ _ _ M (merge_adjacent_spec _ lo (proj1 M))) as (W & S & C).
  split; [exact W|]. split; [intros id; rewrite S; apply inl_app | rewrite C; apply count_pages_app].
Qed.

(* P is any property of the initial candidate and of every index that holds a large enough region: one induction
   then serves whatever the caller needs to know of the index found *)
Lemma best_fit_spec (P : nat -> Prop) n : forall l idx best i c,
  (forall j c', best = Some (j, c') -> P j) ->
  (forall k r, nth_error l k = Some r -> n <= rcount r -> P (idx + k)%nat) ->
  best_fit l n idx best = Some (i, c) -> P i.
Proof.
  induction l as [|r l IH]; intros idx best i c Hb Hl; cbn [best_fit]; [apply Hb|].
  assert (Hhd: n <= rcount r -> P idx) by (rewrite <- (Nat.add_0_r idx); apply (Hl 0%nat r eq_refl)).
  assert (Htl: forall k r', nth_error l k = Some r' -> n <= rcount r' -> P (S idx + k)%nat).
  { intros k. rewrite Nat.add_succ_comm. apply (Hl (S k)). }
  destruct ((n <=? rcount r) && _) eqn:E; [destruct (rcount r =? n)|].
  - intros [= <- _]. apply Hhd. lia.
  - apply IH; [intros j c' [= <- _]; apply Hhd; lia | exact Htl].
  - apply IH; [exact Hb | exact Htl].
Qed.

Lemma replace_nth_spec : forall l lo i sel rest,
  wfl lo l -> nth_error l i = Some sel ->
  rid sel <= rid rest -> rend rest <= rend sel -> 0 <= rcount rest ->
  let l' := replace_nth l i (fun _ => if rcount rest =? 0 then None else Some rest) in
  wfl lo l' /\
  (forall id, inl id l' <-> (inl id l /\ ~ inr id sel) \/ inr id rest) /\
  count_pages l' = count_pages l - rcount sel + rcount rest.
Proof.
  induction l as [|r l IH]; intros lo i sel rest W Hn H1 H2 H3; [destruct i; discriminate|].
  apply wfl_inv in W as (Hlo & Hc & Wl). cbv zeta.
  destruct i as [|i]; cbn [nth_error replace_nth] in *.
  - injection Hn as ->.
    assert (Hsel: forall id, inl id l -> ~ inr id sel) by (intros id X; apply (wfl_lower _ _ _ Wl) in X; rlia).
    destruct (rcount rest =? 0) eqn:Ez.
    + split; [apply wfl_weaken with (rend sel); [rlia | exact Wl]|]. split; [|rewrite count_pages_cons; lia].
      intros id. rewrite inl_cons. specialize (Hsel id). assert (~ inr id rest) by rlia. clear - Hsel H. tauto.
    + split; [constructor; [rlia | rlia | apply wfl_weaken with (rend sel); [rlia | exact Wl]]|].
      split; [|rewrite !count_pages_cons; lia]. intros id. rewrite !inl_cons. specialize (Hsel id). clear - Hsel. tauto.
  - destruct (IH (rend r) i sel rest Wl Hn H1 H2 H3) as (W' & Hs & Hcnt).
    destruct (wfl_in _ _ _ Wl (nth_error_In _ _ Hn)) as [Hge _].
    split; [constructor; assumption|]. split; [|rewrite !count_pages_cons; lia].
    intros id. rewrite !inl_cons, Hs. assert (inr id r -> ~ inr id sel) by rlia. clear - H. tauto.
Qed.

(* [l'] is [l] without its last [t] pages, which form the run [e - t, e): what releaseOverflowPages and the
   shrinking branch of dataAllocator.Free both do to a free list *)
Definition released (lo : Z) (l : regions) (e : Z) (l' : regions) (t : Z) : Prop :=
  0 <= t /\ wfl lo l' /\
  (forall id, inl id l' <-> inl id l /\ id < e - t) /\
  (forall id, e - t <= id < e -> inl id l) /\
  count_pages l' = count_pages l - t.

Lemma released_none lo l e : wfl lo l -> (forall id, inl id l -> id < e) -> released lo l e l 0.
Proof.
  intros W Hlt. unfold released. rewrite !Z.sub_0_r.
  split_all; try lia; [exact W | intros id; specialize (Hlt id); tauto].
Qed.

Lemma released_not_in lo l e l' t id : released lo l e l' t -> ~ inl id l -> id < e -> id < e - t.
Proof. intros (_ & _ & _ & Hrun & _) Hn Hlt. destruct (Z.lt_ge_cases id (e - t)); [assumption | destruct (Hn (Hrun id ltac:(lia)))]. Qed.

Lemma released_trans lo l e l1 t1 l2 t2 :
  released lo l e l1 t1 -> released lo l1 (e - t1) l2 t2 -> released lo l e l2 (t1 + t2).
Proof.
  intros (H1 & _ & S1 & R1 & C1) (H2 & W2 & S2 & R2 & C2). unfold released.
  replace (e - (t1 + t2)) with (e - t1 - t2) by lia. split_all; [lia | exact W2 | | | lia].
  - intros id. rewrite S2, S1. clear - H2. split; [intros [[A B] C]; auto | intros [A B]; split; [split; [exact A | lia] | exact B]].
  - intros id H. destruct (Z_lt_ge_dec id (e - t1)); [apply S1, R2; lia | apply R1; lia].
Qed.

Lemma released_last lo pre r k l' : wfl lo (pre ++ [r]) -> 0 <= k <= rcount r ->
  (k = 0 /\ l' = pre \/ 0 < k /\ l' = pre ++ [{| rid := rid r; rcount := k |}]) ->
  released lo (pre ++ [r]) (rend r) l' (rcount r - k).
Proof.
  intros W Hk Hl'. destruct (wfl_snoc_inv _ _ _ W) as (Wp & Hpre & Hc & Hlo). unfold released.
  assert (Hin: forall id, inl id l' <-> inl id pre \/ rid r <= id < rid r + k).
  { intros id. destruct Hl' as [[-> ->]|[H0 ->]]; [pose proof (inl_nil id); split; [auto | intros [X|X]; [exact X | lia]]|].
    rewrite inl_app, inl_single. reflexivity. }
  split_all.
  - lia.
  - destruct Hl' as [[_ ->]|[H0 ->]]; [exact Wp | apply wfl_snoc; [exact Wp | exact Hpre | exact Hlo | lia]].
  - intros id. rewrite Hin, inl_app, inl_single. specialize (Hpre id). clear - Hpre Hk. unfold inr, rend. intuition lia.
  - intros id H. apply inl_app. right. apply inl_single. rlia.
  - rewrite count_pages_app, count_pages_cons, count_pages_nil.
    destruct Hl' as [[-> ->]|[H0 ->]]; rewrite ?count_pages_app, ?count_pages_cons, ?count_pages_nil; cbn [rcount]; lia.
Qed.

Inductive sorted_from : Z -> list Z -> Prop :=
| sf_nil lo : sorted_from lo []
| sf_cons lo x s : lo <= x -> sorted_from (x + 1) s -> sorted_from lo (x :: s).

Lemma sorted_from_weaken lo lo' s : lo' <= lo -> sorted_from lo s -> sorted_from lo' s.
Proof. intros H S. destruct S; constructor; auto; lia. Qed.

Lemma sorted_from_lower lo s x : sorted_from lo s -> In x s -> lo <= x.
Proof.
  induction 1 as [|lo y s Hy S IH]; cbn [In]; [tauto|].
  intros [->|H]; [lia | apply IH in H; lia].
Qed.

Lemma sorted_from_ext : forall s1 s2 lo, sorted_from lo s1 -> sorted_from lo s2 ->
  (forall x, In x s1 <-> In x s2) -> s1 = s2.
Proof.
  induction s1 as [|x s1 IH]; intros [|y s2] lo S1 S2 H.
  - reflexivity.
  - destruct (proj2 (H y) (in_eq _ _)).
  - destruct (proj1 (H x) (in_eq _ _)).
  - inversion S1 as [|? ? ? Hx S1']; inversion S2 as [|? ? ? Hy S2']; subst.
    assert (x = y).
    { destruct (proj1 (H x) (in_eq _ _)) as [E|Hin]; [auto|]. destruct (proj2 (H y) (in_eq _ _)) as [E|Hin']; [auto|].
      apply (sorted_from_lower _ _ _ S2') in Hin. apply (sorted_from_lower _ _ _ S1') in Hin'. lia. }
    subst y. f_equal. apply (IH s2 (x + 1) S1' S2'). intros z. split; intros Hz.
    + destruct (proj1 (H z) (in_cons _ _ _ Hz)) as [<-|]; [|assumption]. apply (sorted_from_lower _ _ _ S1') in Hz. lia.
    + destruct (proj2 (H z) (in_cons _ _ _ Hz)) as [<-|]; [|assumption]. apply (sorted_from_lower _ _ _ S2') in Hz. lia.
Qed.

Lemma sorted_from_filter (f : Z -> bool) : forall s lo, sorted_from lo s -> sorted_from lo (filter f s).
Proof.
  induction s as [|x s IH]; intros lo S; cbn [filter]; [constructor|].
  inversion S as [|? ? ? Hx S']; subst.
  destruct (f x); [constructor; auto|]. apply sorted_from_weaken with (x + 1); [lia|]. apply IH. exact S'.
Qed.

Lemma set_add_sorted : forall s lo x, sorted_from lo s -> lo <= x -> sorted_from lo (set_add x s).
Proof.
  induction s as [|y s IH]; intros lo x S Hx; cbn [set_add].
  - constructor; auto. constructor.
  - inversion S as [|? ? ? Hy S']; subst.
    destruct (x <? y) eqn:E1; [constructor; auto; constructor; try lia; exact S'|].
    destruct (x =? y) eqn:E2; [exact S|].
    constructor; auto. apply IH; [exact S'|lia].
Qed.

Lemma set_add_in : forall s x y, In y (set_add x s) <-> y = x \/ In y s.
Proof.
  induction s as [|z s IH]; intros x y; cbn [set_add].
  - cbn. intuition congruence.
  - destruct (x <? z) eqn:E1; [cbn; intuition congruence|].
    destruct (x =? z) eqn:E2.
    + assert (x = z) by lia. subst. cbn. intuition congruence.
    + cbn [In]. rewrite IH. intuition congruence.
Qed.

Lemma set_mem_in : forall s x, set_mem x s = true <-> In x s.
Proof.
  induction s as [|y s IH]; intros x; cbn [set_mem In]; [split; [discriminate|tauto]|].
  rewrite orb_true_iff, IH, Z.eqb_eq. split; intros [H|H]; auto.
Qed.

Lemma set_add_all_in : forall xs s y, In y (set_add_all xs s) <-> In y xs \/ In y s.
Proof.
  unfold set_add_all. induction xs as [|x xs IH]; intros s y; cbn [fold_left In]; [tauto|].
  rewrite IH, set_add_in. intuition congruence.
Qed.

Lemma set_add_all_sorted : forall xs s lo, sorted_from lo s -> (forall x, In x xs -> lo <= x) ->
  sorted_from lo (set_add_all xs s).
Proof.
  unfold set_add_all. induction xs as [|x xs IH]; intros s lo S H; cbn [fold_left]; [exact S|].
  apply IH; [apply set_add_sorted; [exact S | apply H; left; reflexivity] | intros y Hy; apply H; right; exact Hy].
Qed.

Lemma seqZ_in : forall n s x, In x (seqZ s n) <-> s <= x < s + Z.of_nat n.
Proof.
  induction n as [|n IH]; intros s x; cbn [seqZ In].
  - lia.
  - rewrite IH. lia.
Qed.

Lemma region_ids_in r x : In x (region_ids r) <-> inr x r.
Proof. unfold region_ids, inr, rend. rewrite seqZ_in. lia. Qed.

Lemma regions_ids_in l x : In x (regions_ids l) <-> inl x l.
Proof.
  unfold regions_ids, inl. rewrite in_flat_map. split; intros [r [H1 H2]]; exists r; split; auto; apply region_ids_in; exact H2.
Qed.

Lemma classic_inl id l : inl id l \/ ~ inl id l.
Proof. rewrite <- regions_ids_in. destruct (in_dec Z.eq_dec id (regions_ids l)); auto. Qed.

Lemma seqZ_length n : forall s, length (seqZ s n) = n.
Proof. induction n as [|n IH]; intros s; cbn [seqZ length]; [reflexivity | f_equal; apply IH]. Qed.

Lemma seqZ_sorted : forall n s lo rest, lo <= s -> sorted_from (s + Z.of_nat n) rest ->
  sorted_from lo (seqZ s n ++ rest).
Proof.
  induction n as [|n IH]; intros s lo rest Hlo Hs; cbn [seqZ app].
  - apply sorted_from_weaken with (s + Z.of_nat 0); [lia | exact Hs].
  - constructor; [exact Hlo|]. apply IH; [lia|].
    replace (s + 1 + Z.of_nat n) with (s + Z.of_nat (S n)) by lia. exact Hs.
Qed.

Lemma wfl_ids lo l : wfl lo l ->
  sorted_from lo (regions_ids l) /\ count_pages l = Z.of_nat (length (regions_ids l)).
Proof.
  unfold regions_ids. induction 1 as [|lo r l Hlo Hc W [S C]]; cbn [flat_map].
  - split; [constructor | reflexivity].
  - unfold region_ids at 1 3. split.
    + apply seqZ_sorted; [exact Hlo|]. rewrite Z2Nat.id by lia. exact S.
    + rewrite count_pages_cons, C, app_length, seqZ_length. lia.
Qed.

Lemma add_regions_sorted l s lo :
  (forall id, inl id l -> lo <= id) -> sorted_from lo s -> sorted_from lo (set_add_all (regions_ids l) s).
Proof. intros H S. apply set_add_all_sorted; [exact S|]. intros x Hx. apply H, regions_ids_in, Hx. Qed.

Lemma add_regions_in l s id : In id (set_add_all (regions_ids l) s) <-> inl id l \/ In id s.
Proof. rewrite set_add_all_in, regions_ids_in. reflexivity. Qed.

Definition single (id : Z) : region := {| rid := id; rcount := 1 |}.

Lemma inr_single id x : inr id (single x) <-> x = id.
Proof. unfold single. rlia. Qed.

Lemma singles_spec : forall s lo, sorted_from lo s ->
  wfl lo (map single s) /\ (forall id, inl id (map single s) <-> In id s) /\
  count_pages (map single s) = Z.of_nat (length s).
Proof.
  induction s as [|x s IH]; intros lo S; cbn [map In length].
  - split; [constructor|]. split; [|reflexivity]. intros id. pose proof (inl_nil id). tauto.
  - inversion S as [|? ? ? Hx S']; subst. destruct (IH _ S') as (W & Hset & Hcnt).
    split; [constructor; [cbn; lia..|exact W]|].
    split; [intros id; rewrite inl_cons, Hset, inr_single; tauto | rewrite count_pages_cons, Hcnt; cbn [rcount single]; lia].
Qed.

Lemma insert_region_sorted r l lo : wfl lo (r :: l) -> insert_region r l = r :: l.
Proof.
  intros W. destruct l as [|x l]; [reflexivity|]. cbn [insert_region].
  apply wfl_inv in W as (_ & Hc & W). apply wfl_inv in W as (Hx & _ & _).
  replace (rid r <? rid x) with true by rlia. reflexivity.
Qed.

Lemma sort_regions_sorted : forall l lo, wfl lo l -> sort_regions l = l.
Proof.
  induction l as [|r l IH]; intros lo W; [reflexivity|].
  unfold sort_regions in *. cbn [fold_right].
  rewrite (IH (rend r)) by apply (wfl_inv _ _ _ W). apply (insert_region_sorted _ _ lo W).
Qed.

Theorem ids_regions_spec s lo : sorted_from lo s ->
  wfl lo (ids_regions s) /\ (forall id, inl id (ids_regions s) <-> In id s) /\
  count_pages (ids_regions s) = Z.of_nat (length s).
Proof.
  intros S. unfold ids_regions, optimize.
  change (map (fun id => {| rid := id; rcount := 1 |}) s) with (map single s).
  destruct (singles_spec s lo S) as (W & Hset & Hcnt). rewrite (sort_regions_sorted _ lo W).
  destruct (merge_adjacent_spec _ lo W) as (W2 & Hset2 & Hcnt2).
  split; [exact W2|]. split; [intros id; rewrite Hset2; apply Hset | congruence].
Qed.

Definition wff (lo : Z) (f : freelist) : Prop := wfl lo (fregions f) /\ avail f = count_pages (fregions f).

Lemma wff_avail_nonneg lo f : wff lo f -> 0 <= avail f.
Proof. intros [W ->]. exact (count_pages_nonneg _ _ W). Qed.

Theorem fl_alloc_regions_spec fromEnd lo f n a f' :
  wff lo f -> 0 <= n -> fl_alloc_regions fromEnd f n = (a, f') ->
  wff lo f' /\ wfl lo a /\
  (n <= avail f -> count_pages a = n /\ avail f' = avail f - n) /\
  (avail f < n -> a = [] /\ f' = f) /\
  (forall id, inl id (fregions f) <-> inl id a \/ inl id (fregions f')) /\
  (forall id, inl id a -> ~ inl id (fregions f')).
Proof.
  intros [W Hav] Hn. unfold fl_alloc_regions.
  destruct ((n =? 0) || (avail f <? n)) eqn:E0.
  - intros [= <- <-]. split; [split; assumption|]. split; [constructor|].
    split; [rewrite count_pages_nil; lia|]. split; [auto|].
    split; intros id; pose proof (inl_nil id); tauto.
  - assert (HN: 0 < n <= count_pages (fregions f)) by lia.
    destruct fromEnd.
    + destruct (take_back (fregions f) n) as [a0 k] eqn:E. intros [= <- <-]. cbn [avail fregions].
      destruct (take_back_spec _ lo n a0 k W HN E) as [S Ca].
      apply same_app_inv in S as (Wk & Wa & Hc & Hset & Hdis).
      split; [split; cbn [avail fregions]; [exact Wk | lia]|]. split; [exact Wa|].
      split; [lia|]. split; [lia|].
      split; [intros id; rewrite Hset; tauto | intros id Ha Hk; exact (Hdis id Hk Ha)].
    + destruct (take_front (fregions f) n) as [a0 rest] eqn:E. intros [= <- <-]. cbn [avail fregions].
      destruct (take_front_spec _ lo n a0 rest W HN E) as [S Ca].
      apply same_app_inv in S as (Wa & Wr & Hc & Hset & Hdis).
      split; [split; cbn [avail fregions]; [exact Wr | lia]|]. split; [exact Wa|].
      split; [lia|]. split; [lia|]. split; [exact Hset | exact Hdis].
Qed.

(* only fromEnd = false, the one way the allocator calls it (data_alloc_cont, wal_alloc) *)
Theorem fl_alloc_cont_spec lo f n r f' :
  wff lo f -> 0 < n -> fl_alloc_cont false f n = (r, f') ->
  match r with
  | None => f' = f
  | Some reg =>
      rcount reg = n /\ lo <= rid reg /\ n < 2^32 /\ wff lo f' /\ avail f' = avail f - n /\
      (forall id, inl id (fregions f) <-> inr id reg \/ inl id (fregions f')) /\
      (forall id, inr id reg -> ~ inl id (fregions f'))
  end.
Proof.
  intros [W Hav] Hn. unfold fl_alloc_cont.
  destruct (_ || _) eqn:E0; [intros [= <- <-]; reflexivity|].
  destruct (best_fit (fregions f) n 0 None) as [[i c]|] eqn:Eb; [|intros [= <- <-]; reflexivity].
  destruct (nth_error (fregions f) i) as [sel|] eqn:En; [|intros [= <- <-]; reflexivity].
  intros [= <- <-].
  assert (Hle: n <= rcount sel).
  { refine (best_fit_spec (fun j => nth_error (fregions f) j = Some sel -> n <= rcount sel) n _ _ _ _ _ _ _ Eb En);
      [discriminate | intros k r H1 H2; cbn [Nat.add]; rewrite H1; intros [= <-]; exact H2]. }
  pose proof (nth_error_In _ _ En) as Hin. destruct (wfl_in _ _ _ W Hin) as [Hlos Hcs].
  destruct (replace_nth_spec (fregions f) lo i sel {| rid := rid sel + n; rcount := rcount sel - n |} W En)
    as (W' & Hset & Hcnt); [rlia..|].
  cbn [rcount rid avail fregions] in *.
  split; [reflexivity|]. split; [exact Hlos|]. split; [unfold u32max in E0; lia|].
  split; [split; [exact W' | cbn [avail fregions]; lia]|]. split; [reflexivity|].
  assert (Hi: forall id, inr id sel -> inl id (fregions f)) by (intros id H; exists sel; split; assumption).
  split; intros id; rewrite Hset; unfold inr, rend in *; cbn [rid rcount].
  - split.
    + intros H. destruct (Z_lt_ge_dec id (rid sel)); [right; left; split; [exact H | lia]|].
      destruct (Z_lt_ge_dec id (rid sel + n)); [left; lia|].
      destruct (Z_lt_ge_dec id (rid sel + rcount sel)); [right; right; lia | right; left; split; [exact H | lia]].
    + intros [H|[[H _]|H]]; [apply Hi; lia | exact H | apply Hi; lia].
  - intros H [[_ Hns]|Hr]; lia.
Qed.

Theorem fl_add_regions_spec f l lo : wff lo f -> wfl lo l -> disjoint_l (fregions f) l ->
  wff lo (fl_add_regions f l) /\
  (forall id, inl id (fregions (fl_add_regions f l)) <-> inl id (fregions f) \/ inl id l) /\
  avail (fl_add_regions f l) = avail f + count_pages l.
Proof.
  intros [W Hav] Wl Hd. unfold fl_add_regions.
  destruct (0 <? count_pages l) eqn:E.
  - destruct (merge_region_lists_spec _ _ lo W Wl Hd) as (W2 & Hset & Hcnt). cbn [fregions avail].
    split; [split; cbn [fregions avail]; [exact W2 | lia]|]. split; [exact Hset | reflexivity].
  - (* a well-formed list without pages is empty *)
    destruct Wl as [|? r l Hr Hc Wl]; [|apply count_pages_nonneg in Wl; rewrite count_pages_cons in E; lia].
    split; [split; assumption|]. split; [|rewrite count_pages_nil; lia].
    intros id. pose proof (inl_nil id). tauto.
Qed.

Theorem fl_remove_region_spec f reg lo : wff lo f ->
  wff lo (fl_remove_region f reg) /\
  (forall id, inl id (fregions (fl_remove_region f reg)) <-> inl id (fregions f) /\ ~ inr id reg).
Proof.
  intros [W Hav]. unfold fl_remove_region.
  destruct (remove_range (fregions f) (rid reg) (rend reg)) as [l t] eqn:E.
  destruct (remove_range_spec _ lo _ _ _ _ W E) as (W2 & Hset & Hcnt & Ht). cbn [fregions avail].
  split; [split; cbn [fregions avail]; [exact W2 | lia]|]. exact Hset.
Qed.

Theorem fl_add_region_spec f reg lo : wff lo f -> lo <= rid reg -> 0 < rcount reg < 2^32 ->
  (forall id, inr id reg -> ~ inl id (fregions f)) ->
  wff lo (fl_add_region f reg) /\
  (forall id, inl id (fregions (fl_add_region f reg)) <-> inr id reg \/ inl id (fregions f)) /\
  avail (fl_add_region f reg) = avail f + rcount reg.
Proof.
  intros [W Hav] Hlo Hc Hd. unfold fl_add_region. cbn [fregions avail].
  destruct (add_region_spec _ lo reg W Hlo Hc Hd) as (W2 & Hset & Hcnt). rewrite count_pages_cons in Hcnt.
  split; [split; cbn [fregions avail]; [exact W2 | lia]|].
  split; [intros id; rewrite Hset; apply inl_cons | reflexivity].
Qed.

Lemma fl_remove_region_above f lo reg : wff lo f -> (forall id, inl id (fregions f) -> id < rid reg) ->
  fl_remove_region f reg = f.
Proof.
  intros [W _] Hb. unfold fl_remove_region. rewrite (remove_range_above _ lo _ _ W Hb).
  destruct f as [av l]. cbn [avail fregions]. f_equal. lia.
Qed.
