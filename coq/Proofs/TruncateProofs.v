(* What the two truncations of a bounded file (tx.go checkTruncate at a commit, rollbackChanges at a rollback) leave
   inside the file, and for each variant that leaves less a file on which it cuts off pages still in use. *)
From VF Require Import Truncate.
From Coq Require Import Lia ZifyBool.

(* lastEnd * pageSize <= e: the state of the previous commit, the fall-back of Open, stays inside the file *)
Theorem check_truncate_spec lastEnd sz mmapSz maxSz pageSize e :
  check_truncate lastEnd sz mmapSz maxSz pageSize = (e, true) ->
  mmapSz <= e /\ lastEnd * pageSize <= e /\ maxSz <= e /\ e < sz /\ 0 < maxSz.
Proof.
  unfold check_truncate. destruct (maxSz <=? 0) eqn:E0; [discriminate|].
  destruct (sz <=? Z.max mmapSz maxSz) eqn:E1; [discriminate|].
  intros [= <- H]. lia.
Qed.

Theorem check_truncate_unbounded lastEnd sz mmapSz maxSz pageSize :
  maxSz <= 0 -> check_truncate lastEnd sz mmapSz maxSz pageSize = (0, false).
Proof. intros H. unfold check_truncate. replace (maxSz <=? 0) with true by lia. reflexivity. Qed.

(* the witness: the previous commit uses 78 pages, the new one needs 50, the limit is 50 pages *)
Theorem check_truncate_clamped_refuted : exists lastEnd sz mmapSz maxSz pageSize e,
  check_truncate_clamped lastEnd sz mmapSz maxSz pageSize = (e, true) /\ e < lastEnd * pageSize.
Proof. exists 78, (78 * 4096), (50 * 4096), (50 * 4096), 4096, (50 * 4096). split; [vm_compute; reflexivity | lia]. Qed.

Example check_truncate_ex : check_truncate 78 (78 * 4096) (50 * 4096) (50 * 4096) 4096 = (78 * 4096, false).
Proof. vm_compute. reflexivity. Qed.

Theorem rollback_truncate_spec metaEnd dataEnd otherEnd sz ps mp n :
  0 < ps -> rollback_truncate metaEnd dataEnd otherEnd sz ps mp = Some n ->
  n < sz /\ n = Z.max (Z.max metaEnd dataEnd) otherEnd * ps /\
  (forall id, 0 <= id < Z.max metaEnd dataEnd -> (id + 1) * ps <= n) /\
  (forall id, 0 <= id < otherEnd -> (id + 1) * ps <= n).
Proof.
  intros Hps. unfold rollback_truncate. destruct (mp =? 0); [discriminate|].
  destruct (Z.max (Z.max metaEnd dataEnd) otherEnd * ps <? sz) eqn:E; [|discriminate]. intros [= <-].
  split; [lia|]. split; [reflexivity|]. split; intros id Hid; nia.
Qed.

Theorem rollback_truncate_unbounded metaEnd dataEnd otherEnd sz ps : rollback_truncate metaEnd dataEnd otherEnd sz ps 0 = None.
Proof. reflexivity. Qed.

(* the code before fix D33; the witness: the newest commit ends at page 68, the previous one (the fall-back of Open)
   at page 153 *)
Theorem rollback_truncate_v1_refuted : exists metaEnd dataEnd otherEnd sz ps mp n id,
  rollback_truncate_v1 metaEnd dataEnd sz ps mp = Some n /\ 0 <= id < otherEnd /\ n < (id + 1) * ps.
Proof. exists 68, 68, 153, (153 * 1024), 1024, 64, (68 * 1024), 152. split; [vm_compute; reflexivity | lia]. Qed.

(* seeded change C02j cuts off a committed overflow area; the witness: 64 data pages, meta end marker 67 (3 pages
   behind the limit in use), the file has 72 pages *)
Theorem rollback_truncate_dataend_refuted : exists metaEnd dataEnd sz ps mp n id,
  rollback_truncate_dataend dataEnd sz ps mp = Some n /\ dataEnd <= id < metaEnd /\ n < (id + 1) * ps.
Proof. exists 67, 64, (72 * 1024), 1024, 64, (64 * 1024), 65. split; [vm_compute; reflexivity | lia]. Qed.

Example rollback_truncate_ex : rollback_truncate 67 64 0 (72 * 1024) 1024 64 = Some (67 * 1024).
Proof. vm_compute. reflexivity. Qed.
Example rollback_truncate_ex2 : rollback_truncate 68 68 153 (160 * 1024) 1024 64 = Some (153 * 1024).
Proof. vm_compute. reflexivity. Qed.
