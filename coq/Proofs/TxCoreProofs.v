(* A committed transaction makes exactly its own writes visible: for every sequence of page writes, flushes
   and checkpoints, after the commit every page reads as the last value the transaction wrote to it, every
   other page as before. *)
From VF Require Import TxCore.

Lemma aget_adel V (m : list (Z * V)) id x :
  TxCore.aget V (TxCore.adel V m id) x = if id =? x then None else TxCore.aget V m x.
Proof.
  induction m as [|[k v] m IH]; cbn; [destruct (id =? x); reflexivity|].
  destruct (Z.eqb_spec k id) as [->|Hk]; cbn; rewrite IH.
  - destruct (id =? x); reflexivity.
  - destruct (Z.eqb_spec k x), (Z.eqb_spec id x); congruence.
Qed.

Lemma fold_left_inv {A B} (f : A -> B -> A) (P : A -> Prop) :
  (forall a b, P a -> P (f a b)) -> forall l a, P a -> P (fold_left f l a).
Proof. intros H l. induction l as [|b l IH]; intros a Pa; [exact Pa | apply IH, H, Pa]. Qed.

Lemma nodup_app_disj {A} (a b : list A) x : NoDup (a ++ b) -> In x a -> In x b -> False.
Proof.
  induction a as [|y a IH]; intros N Ha Hb; [destruct Ha|]. inversion N as [|? ? Hn N']; subst.
  destruct Ha as [->|Ha]; [apply Hn, in_or_app; right; exact Hb | exact (IH N' Ha Hb)].
Qed.

Lemma nodup_app_r {A} (a b : list A) : NoDup (a ++ b) -> NoDup b.
Proof. induction a as [|y a IH]; intros N; [exact N | inversion N; auto]. Qed.

Section P.
Variable V : Type.
Notation wget := TxCore.wget. Notation wdel := TxCore.wdel. Notation wset := TxCore.wset.
Notation aget := (TxCore.aget V). Notation adel := (TxCore.adel V).
Notation t_dirty := (TxCore.t_dirty V). Notation t_flushed := (TxCore.t_flushed V). Notation t_new := (TxCore.t_new V).
Notation t_free := (TxCore.t_free V). Notation t_newmap := (TxCore.t_newmap V). Notation t_sched := (TxCore.t_sched V).
Notation t_fresh := (TxCore.t_fresh V). Notation t_ckpt := (TxCore.t_ckpt V).

(* wget / wdel are aget / adel at V := Z *)
Lemma wget_wdel m id x : wget (wdel m id) x = if id =? x then None else wget m x.
Proof. exact (aget_adel Z m id x). Qed.
Lemma wget_wset m id w x : wget (wset m id w) x = if id =? x then Some w else wget m x.
Proof. unfold wset. cbn [TxCore.wget]. rewrite wget_wdel. destruct (id =? x); reflexivity. Qed.
Lemma aget_set m id v x : aget ((id, v) :: adel m id) x = if id =? x then Some v else aget m x.
Proof. cbn [TxCore.aget]. rewrite aget_adel. destruct (id =? x); reflexivity. Qed.
Lemma wget_app a b x : wget (a ++ b) x = match wget a x with Some w => Some w | None => wget b x end.
Proof. induction a as [|[k w] a IH]; cbn; [reflexivity|]. destruct (k =? x); [reflexivity | exact IH]. Qed.
Lemma wget_filter (f : Z -> bool) m x :
  wget (filter (fun '(id, _) => f id) m) x = if f x then wget m x else None.
Proof.
  induction m as [|[k w] m IH]; cbn; [destruct (f x); reflexivity|].
  destruct (f k) eqn:Ek; cbn; rewrite IH; destruct (Z.eqb_spec k x) as [<-|_]; try rewrite Ek; reflexivity.
Qed.
Lemma wget_in m id w : wget m id = Some w -> In (id, w) m.
Proof.
  induction m as [|[k w0] m IH]; cbn; [discriminate|].
  destruct (Z.eqb_spec k id) as [->|_]; [intros [= <-]; left; reflexivity | intros H; right; exact (IH H)].
Qed.
Lemma wget_none_keys m id : wget m id = None <-> ~ In id (map fst m).
Proof.
  induction m as [|[k w] m IH]; cbn; [split; [intros _ [] | reflexivity]|].
  destruct (Z.eqb_spec k id) as [->|Hk]; [split; [discriminate | intros H; destruct H; left; reflexivity]|].
  rewrite IH. split; [intros H [X|X]; [exact (Hk X) | exact (H X)] | intros H X; exact (H (or_intror X))].
Qed.
Lemma wget_of_in (m : TxCore.wmap) id w : NoDup (map fst m) -> In (id, w) m -> wget m id = Some w.
Proof.
  induction m as [|[k w0] m IH]; intros N H; [destruct H|]. inversion N as [|? ? Hn N']; subst. cbn.
  destruct H as [[= -> ->]|H]; [rewrite Z.eqb_refl; reflexivity|].
  destruct (Z.eqb_spec k id) as [->|_]; [destruct Hn; exact (in_map fst _ _ H) | exact (IH N' H)].
Qed.
Lemma wget_fold_wdel (ents : TxCore.wmap) : forall m x,
  wget (fold_left (fun m '(id, _) => wdel m id) ents m) x = if TxCore.mem x (map fst ents) then None else wget m x.
Proof.
  induction ents as [|[k w] ents IH]; intros m x; cbn [fold_left map fst]; [reflexivity|].
  rewrite IH, wget_wdel. unfold TxCore.mem. cbn [existsb]. rewrite (Z.eqb_sym x k).
  destruct (k =? x), (existsb (Z.eqb x) (map fst ents)); reflexivity.
Qed.
Lemma keys_filter (f : Z -> bool) (m : TxCore.wmap) : map fst (filter (fun '(id, _) => f id) m) = filter f (map fst m).
Proof. induction m as [|[k w] m IH]; cbn; [reflexivity|]. destruct (f k); cbn; rewrite IH; reflexivity. Qed.

Lemma mem_in id l : TxCore.mem id l = true <-> In id l.
Proof.
  unfold TxCore.mem. rewrite existsb_exists. split; [intros (x & H & E); apply Z.eqb_eq in E as <-; exact H|].
  intros H. exists id. split; [exact H | apply Z.eqb_refl].
Qed.
Lemma mem_false id l : TxCore.mem id l = false <-> ~ In id l.
Proof. rewrite <- mem_in. destruct (TxCore.mem id l); split; congruence. Qed.

Lemma apply_snoc (d : Z -> V) ws p v q :
  TxCore.apply_writes V d (ws ++ [(p, v)]) q = if q =? p then v else TxCore.apply_writes V d ws q.
Proof. unfold TxCore.apply_writes. rewrite fold_left_app. reflexivity. Qed.
Lemma apply_app_untouched (d : Z -> V) ws ws2 q :
  ~ In q (map fst ws2) -> TxCore.apply_writes V d (ws ++ ws2) q = TxCore.apply_writes V d ws q.
Proof.
  revert ws. induction ws2 as [|[p v] ws2 IH]; intros ws H; [rewrite app_nil_r; reflexivity|].
  change (ws ++ (p, v) :: ws2) with (ws ++ [(p, v)] ++ ws2). rewrite app_assoc, IH, apply_snoc by (cbn in H; tauto).
  destruct (Z.eqb_spec q p) as [->|_]; [destruct H; left; reflexivity | reflexivity].
Qed.
Lemma apply_app_in (d : Z -> V) ws2 : forall ws q v,
  NoDup (map fst ws2) -> In (q, v) ws2 -> TxCore.apply_writes V d (ws ++ ws2) q = v.
Proof.
  induction ws2 as [|[p v0] ws2 IH]; intros ws q v N H; [destruct H|]. inversion N as [|? ? Hn N']; subst.
  change (ws ++ (p, v0) :: ws2) with (ws ++ [(p, v0)] ++ ws2). rewrite app_assoc.
  destruct H as [[= -> ->]|H]; [|exact (IH _ q v N' H)].
  rewrite apply_app_untouched, apply_snoc, Z.eqb_refl by exact Hn. reflexivity.
Qed.

(* s is the committed state the transaction starts from, fresh0 the overwrite pages the wal allocator can hand out *)
Variable s : TxCore.fstate V.
Variable fresh0 : list Z.
Notation old := (TxCore.f_wal V s).
Notation okeys := (map fst old).
Notation ovals := (map snd old).
Notation txs := (TxCore.txs V).

Definition data_id (id : Z) : Prop := ~ In id ovals /\ ~ In id fresh0.

Record WF : Prop := {
  wf_keys : NoDup okeys;
  wf_vals : NoDup (ovals ++ fresh0);
  wf_disj : forall k, In k okeys -> data_id k }.
Hypothesis wf : WF.

Definition curmap (t : txs) := TxCore.mapping_update V old t.
Definition rdphys (t : txs) (id : Z) : V :=
  TxCore.apply_writes V (TxCore.f_disk V s) (t_sched t) (TxCore.phys (curmap t) id).

Lemma curmap_get t id :
  wget (curmap t) id =
  match wget (t_newmap t) id with
  | Some w => Some w
  | None => if TxCore.mem id (t_free t) then None else wget old id
  end.
Proof.
  unfold curmap, TxCore.mapping_update. rewrite wget_app.
  destruct (wget (t_newmap t) id) as [w|] eqn:E; [reflexivity|].
  rewrite (wget_filter (fun id => negb (TxCore.mem id (t_free t)) &&
                                  match wget (t_newmap t) id with Some _ => false | None => true end)).
  rewrite E. destruct (TxCore.mem id (t_free t)); reflexivity.
Qed.

Lemma old_get_val id w : wget old id = Some w -> In w ovals /\ In id okeys.
Proof. intros H. apply wget_in in H. split; [exact (in_map snd _ _ H) | exact (in_map fst _ _ H)]. Qed.

Record TI (t : txs) : Prop := {
  (* the overwrite pages handed out so far are the front of the fresh list; the new mapping holds only these, and
     only for flushed pages *)
  ti_map : exists used, fresh0 = used ++ t_fresh t /\
             forall id w, wget (t_newmap t) id = Some w -> In id (t_flushed t) /\ In w used;
  ti_dirty_data : forall id v, aget (t_dirty t) id = Some v -> data_id id;
  ti_flushed : forall id, In id (t_flushed t) -> exists v, aget (t_dirty t) id = Some v;
  ti_flushed_old : forall id, In id (t_flushed t) -> In id okeys -> In id (t_free t);
  ti_new : forall id, In id (t_new t) -> ~ In id okeys;
  ti_ckpt : t_ckpt t = true -> forall id, In id okeys ->
              In id (t_free t) \/ exists v, aget (t_dirty t) id = Some v;
  ti_p1 : forall id, data_id id -> aget (t_dirty t) id = None -> rdphys t id = TxCore.f_read V s id;
  ti_p2 : forall id v, aget (t_dirty t) id = Some v -> In id (t_flushed t) -> rdphys t id = v }.

Lemma ti_begin : TI (TxCore.tx_begin V fresh0).
Proof.
  constructor; cbn -[rdphys]; try discriminate; try contradiction.
  - exists []. split; [reflexivity | discriminate].
  - intros id _ _. unfold rdphys, TxCore.phys. rewrite curmap_get. reflexivity.
Qed.

Lemma unflushed_unmapped t id : TI t -> ~ In id (t_flushed t) -> wget (t_newmap t) id = None.
Proof.
  intros T Hf. pose proof (ti_map t T) as (used & _ & Hnm).
  case_eq (wget (t_newmap t) id); [|reflexivity]. intros w E. case Hf. apply (Hnm id w E).
Qed.

(* where a page is read from: its own location, an overwrite page handed out by this transaction, or a
   committed overwrite page *)
Lemma phys_cases t id : TI t ->
  TxCore.phys (curmap t) id = id \/
  (In (TxCore.phys (curmap t) id) fresh0 /\ ~ In (TxCore.phys (curmap t) id) (t_fresh t)) \/
  In (TxCore.phys (curmap t) id) ovals.
Proof.
  intros T. pose proof (ti_map t T) as (used & Hu & Hnm). unfold TxCore.phys. rewrite curmap_get.
  case_eq (wget (t_newmap t) id).
  - intros w E. right. left. apply Hnm in E as [_ Hw]. pose proof (wf_vals wf) as N. rewrite Hu in N |- *.
    split; [apply in_or_app; left; exact Hw | exact (nodup_app_disj _ _ w (nodup_app_r _ _ N) Hw)].
  - intros _. case (TxCore.mem id (t_free t)); [left; reflexivity|].
    case_eq (wget old id); [intros w E; right; right; apply (old_get_val id w E) | left; reflexivity].
Qed.

(* hence no page is read from the original location of another page or from an overwrite page not yet handed out *)
Lemma phys_neq t id p : TI t -> data_id p \/ In p (t_fresh t) -> p <> id -> TxCore.phys (curmap t) id <> p.
Proof.
  intros T Hp Hne E. pose proof (ti_map t T) as (used & Hu & _).
  assert (Hf : In p (t_fresh t) -> In p fresh0) by (intros X; rewrite Hu; apply in_or_app; right; exact X).
  destruct (phys_cases t id T) as [H|[[H1 H2]|H]]; rewrite E in *; [congruence | destruct Hp as [[_ Hp]|Hp]; contradiction|].
  destruct Hp as [[Hp _]|Hp]; [contradiction | exact (nodup_app_disj _ _ p (wf_vals wf) H (Hf Hp))].
Qed.

(* more writes are scheduled, none of them to the location a page is read from: the page reads as before *)
Lemma rd_frame t t' ws id : TI t ->
  t_sched t' = t_sched t ++ ws ->
  TxCore.phys (curmap t') id = TxCore.phys (curmap t) id ->
  (forall p, In p (map fst ws) -> (data_id p \/ In p (t_fresh t)) /\ p <> id) ->
  rdphys t' id = rdphys t id.
Proof.
  intros T Hs Hp Hw. unfold rdphys. rewrite Hs, Hp. apply apply_app_untouched.
  intros X. destruct (Hw _ X) as [A B]. exact (phys_neq t id _ T A B eq_refl).
Qed.

(* reduce the projections of states that are given field by field *)
Ltac fields := cbn [TxCore.t_dirty TxCore.t_flushed TxCore.t_new TxCore.t_free TxCore.t_newmap TxCore.t_sched
                    TxCore.t_fresh TxCore.t_ckpt] in *.

(* The three ways of flushing share one shape: the dirty, unflushed page id is written in place (ow = None; the
   committed overwrite page of id, if it has one, is released) or into the next fresh overwrite page (ow = Some w).
   The invariant sees the new mapping and the released ids only through wget and In. *)
Lemma flush_to_inv t id v ow nm' fr' fh' :
  TI t -> aget (t_dirty t) id = Some v -> ~ In id (t_flushed t) ->
  (forall x, wget nm' x = if id =? x then ow else wget (t_newmap t) x) ->
  (forall x, In x fr' <-> In x (t_free t) \/ x = id /\ In id okeys) ->
  t_fresh t = match ow with Some w => [w] | None => [] end ++ fh' ->
  TI (TxCore.Build_txs V (t_dirty t) (id :: t_flushed t) (t_new t) fr' nm'
        (t_sched t ++ [(match ow with Some w => w | None => id end, v)]) fh' (t_ckpt t)).
Proof.
  intros T Ed Ef Hnm Hfr Hfh. pose proof T as [(used & Hu & Tnm) Tdd Tfl Tfo Tnew Tck Tp1 Tp2].
  set (p := match ow with Some w => w | None => id end). set (t' := TxCore.Build_txs V _ _ _ fr' nm' _ fh' _).
  (* id is read from p afterwards and reads as v; no other page is read from p, so all others read as before *)
  assert (Hrd : forall x, data_id x -> rdphys t' x = if id =? x then v else rdphys t x).
  { intros x Dx. case (Z.eqb_spec id x); [intros <-|intros Hne].
    - unfold rdphys. replace (TxCore.phys (curmap t') id) with p;
        [unfold t'; fields; rewrite apply_snoc, Z.eqb_refl; reflexivity|].
      unfold TxCore.phys. rewrite curmap_get. unfold t', p. fields. rewrite Hnm, Z.eqb_refl.
      case ow; [reflexivity|]. case_eq (TxCore.mem id fr'); [reflexivity|]. intros Em.
      case_eq (wget old id); [|reflexivity]. intros w Eo.
      apply mem_false in Em. case Em. apply Hfr. right. split; [reflexivity | apply (old_get_val id w Eo)].
    - apply (rd_frame t t' [(p, v)] x T eq_refl).
      + unfold TxCore.phys. rewrite !curmap_get. unfold t'. fields. rewrite Hnm. case (Z.eqb_spec id x); [contradiction|].
        intros _. replace (TxCore.mem x fr') with (TxCore.mem x (t_free t)); [reflexivity|].
        apply eq_true_iff_eq. rewrite !mem_in, Hfr. clear -Hne. intuition congruence.
      + cbn [map fst In]. intros q [<-|[]]. unfold p. revert Hfh. case ow; [intros w E|intros _].
        * rewrite E in Hu |- *. split; [right; left; reflexivity|]. intros ->. apply Dx. rewrite Hu. apply in_or_app. right. left. reflexivity.
        * split; [left; exact (Tdd id v Ed) | exact Hne]. }
  subst t'. constructor; fields; try assumption.
  - exists (used ++ match ow with Some w => [w] | None => [] end). split; [rewrite <- app_assoc, <- Hfh; exact Hu|].
    intros x w. rewrite Hnm. case (Z.eqb_spec id x); [intros <- ->|intros _ E].
    + split; [left; reflexivity | apply in_or_app; right; left; reflexivity].
    + pose proof (Tnm x w E) as [A B]. split; [right; exact A | apply in_or_app; left; exact B].
  - intros x [<-|H]; eauto.
  - intros x [<-|H] Hk; apply Hfr; auto.
  - intros Hc x Hk. case (Tck Hc x Hk); [left; apply Hfr | right]; auto.
  - intros x Hx Hnd. rewrite (Hrd x Hx). case (Z.eqb_spec id x); [intros <-; congruence | auto].
  - intros x v' Hd [Hf|Hf]; rewrite (Hrd x (Tdd x v' Hd)).
    + rewrite Hf, Z.eqb_refl. congruence.
    + case (Z.eqb_spec id x); [intros <-; contradiction | auto].
Qed.

Lemma flush_inv t id : TI t -> TI (TxCore.do_flush V s t id).
Proof.
  intros T. pose proof (unflushed_unmapped t id T) as Hnm. pose proof (ti_new t T id) as Hnew.
  unfold TxCore.do_flush. case_eq (aget (t_dirty t) id); [|intros _; exact T]. intros v Ed.
  case_eq (TxCore.mem id (t_flushed t)); [intros _; exact T|]. intros Ef. apply mem_false in Ef. specialize (Hnm Ef).
  case_eq (TxCore.mem id (t_new t)); intros En.
  - (* a new page: written directly *)
    apply mem_in in En. apply (flush_to_inv t id v None); try assumption; [| |reflexivity].
    + intros x. case (Z.eqb_spec id x); [intros <-; exact Hnm | reflexivity].
    + intros x. specialize (Hnew En). clear -Hnew. tauto.
  - case_eq (wget old id).
    + (* already in the WAL: in place, released *)
      intros w0 Eo. apply (flush_to_inv t id v None); try assumption; [| |reflexivity].
      * intros x. apply wget_wdel.
      * intros x. pose proof (old_get_val id w0 Eo) as [_ Hk]. clear -Hk. cbn [In]. intuition congruence.
    + (* not in the WAL: a fresh overwrite page, if there is one left *)
      intros Eo. apply wget_none_keys in Eo. case_eq (t_fresh t); [intros _; exact T|]. intros w fh' Efh.
      apply (flush_to_inv t id v (Some w)); try assumption.
      * intros x. apply wget_wset.
      * intros x. clear -Eo. tauto.
Qed.

Lemma flush_all_ind (P : txs -> Prop) :
  (forall t id, P t -> P (TxCore.do_flush V s t id)) -> forall t, P t -> P (TxCore.flush_all V s t).
Proof. intros H t. unfold TxCore.flush_all. apply fold_left_inv. intros t' [id v]. apply H. Qed.

Lemma flush_all_inv t : TI t -> TI (TxCore.flush_all V s t).
Proof. apply flush_all_ind. intros t' id. apply flush_inv. Qed.

Lemma set_inv t id v : TI t -> data_id id -> TI (TxCore.tx_step V s t (TxCore.OSet V id v)).
Proof.
  intros T Hd. cbn [TxCore.tx_step]. case_eq (TxCore.mem id (t_flushed t)); [intros _; exact T|].
  intros Ef. apply mem_false in Ef. destruct T as [Tm Tdd Tfl Tfo Tnew Tck Tp1 Tp2].
  constructor; fields; try assumption.
  - intros x v'. rewrite aget_set. case (Z.eqb_spec id x); [intros <- _; exact Hd | intros _; apply Tdd].
  - intros x H. rewrite aget_set. case (Z.eqb_spec id x); [intros <-; contradiction | intros _; exact (Tfl x H)].
  - intros Hc x Hk. rewrite aget_set. case (id =? x); [right; exists v; reflexivity | exact (Tck Hc x Hk)].
  - intros x Hx. rewrite aget_set. case (id =? x); [discriminate | exact (Tp1 x Hx)].
  - intros x v'. rewrite aget_set. case (Z.eqb_spec id x); [intros <- _ Hf; contradiction | intros _; exact (Tp2 x v')].
Qed.

Lemma alloc_inv t id : TI t -> ~ In id okeys -> TI (TxCore.tx_step V s t (TxCore.OAlloc V id)).
Proof.
  intros [Tm Tdd Tfl Tfo Tnew Tck Tp1 Tp2] Hk. constructor; fields; try assumption.
  intros x [<-|H]; [exact Hk | exact (Tnew x H)].
Qed.

Lemma keys_copies (f : Z -> V) (ents : TxCore.wmap) : map fst (map (fun '(id, w) => (id, f w)) ents) = map fst ents.
Proof. rewrite map_map. apply map_ext. intros [id w]. reflexivity. Qed.

Lemma checkpoint_inv t : TI t -> TI (TxCore.do_checkpoint V s t).
Proof.
  intros T. unfold TxCore.do_checkpoint. case (t_ckpt t); [exact T|].
  cbv zeta. set (ents := filter _ old). set (copies := map _ ents : list (Z * V)).
  set (t' := TxCore.Build_txs V _ _ _ _ _ _ _ _). pose proof T as [Tm Tdd Tfl Tfo Tnew _ Tp1 Tp2].
  (* the entries copied back: those of the pages the transaction did not write; such a page has no new overwrite page *)
  assert (Hek : map fst ents = filter (fun id => match aget (t_dirty t) id with Some _ => false | None => true end) okeys)
    by apply keys_filter.
  assert (Hkeys : forall x, In x (map fst ents) <-> In x okeys /\ aget (t_dirty t) x = None).
  { intros x. rewrite Hek, filter_In. case (aget (t_dirty t) x); clear; intuition congruence. }
  assert (Hclean : forall x, aget (t_dirty t) x = None -> wget (t_newmap t) x = None).
  { intros x Hx. apply (unflushed_unmapped t x T). intros F. apply Tfl in F as [v F]. congruence. }
  assert (Hnm : forall x, wget (t_newmap t') x = wget (t_newmap t) x).
  { intros x. unfold t'. fields. rewrite wget_fold_wdel. case_eq (TxCore.mem x (map fst ents)); [|reflexivity].
    intros Em. symmetry. apply Hclean, Hkeys, mem_in, Em. }
  (* afterwards these pages are read from their original locations, where the copies go; the other pages read as before *)
  assert (Hphys : forall x, TxCore.phys (curmap t') x = if TxCore.mem x (map fst ents) then x else TxCore.phys (curmap t) x).
  { intros x. unfold TxCore.phys. rewrite !curmap_get, Hnm. unfold t', TxCore.mem. fields. rewrite existsb_app.
    fold (TxCore.mem x (map fst ents)). case_eq (TxCore.mem x (map fst ents)); [|reflexivity].
    intros Em. rewrite (Hclean x); [reflexivity | apply Hkeys, mem_in, Em]. }
  assert (Hframe : forall x, ~ In x (map fst ents) -> rdphys t' x = rdphys t x).
  { intros x Hx. apply (rd_frame t t' copies x T eq_refl).
    - rewrite Hphys, (proj2 (mem_false x _) Hx). reflexivity.
    - intros k Hk. unfold copies in Hk. rewrite keys_copies in Hk.
      split; [left; apply (wf_disj wf), Hkeys, Hk | intros ->; exact (Hx Hk)]. }
  constructor; [unfold t'; fields; try assumption .. | |].
  - fold t'. destruct Tm as (used & Hu & Tnm). exists used. split; [exact Hu|]. intros x w. rewrite Hnm. apply Tnm.
  - intros x H Hk. apply in_or_app. right. exact (Tfo x H Hk).
  - intros _ x Hk. case_eq (aget (t_dirty t) x); [intros v _; right; exists v; reflexivity|].
    intros E. left. apply in_or_app. left. apply Hkeys. split; assumption.
  - intros x Hx Hnd. change (aget (t_dirty t) x = None) in Hnd. case_eq (wget old x).
    + (* x is copied back by this checkpoint: the copies go to distinct pages, so the one to x decides what x holds *)
      intros w Eo. pose proof (old_get_val x w Eo) as [_ Hk]. unfold rdphys, TxCore.f_read, TxCore.phys at 2.
      rewrite Eo, Hphys, (proj2 (mem_in x _) (proj2 (Hkeys x) (conj Hk Hnd))).
      apply apply_app_in; [unfold copies; rewrite keys_copies, Hek; apply NoDup_filter, (wf_keys wf)|].
      apply (in_map (fun '(id, w) => (id, TxCore.f_disk V s w)) ents (x, w)), filter_In.
      split; [exact (wget_in _ _ _ Eo) | rewrite Hnd; reflexivity].
    + intros Eo. rewrite Hframe; [exact (Tp1 x Hx Hnd)|]. intros X. apply Hkeys in X as [X _].
      exact (proj1 (wget_none_keys _ _) Eo X).
  - intros x v Hd Hf. change (aget (t_dirty t) x = Some v) in Hd. rewrite Hframe; [exact (Tp2 x v Hd Hf)|].
    intros X. apply Hkeys in X as [_ X]. congruence.
Qed.

Definition op_ok (t : txs) (o : TxCore.top V) : Prop :=
  match o with
  | TxCore.OAlloc _ id => ~ In id okeys /\ aget (TxCore.t_dirty V t) id = None   (* a page the allocator just handed out *)
  | TxCore.OSet _ id _ => data_id id                                            (* user pages are never overwrite pages *)
  | _ => True
  end.
Fixpoint ops_ok (t : txs) (ops : list (TxCore.top V)) : Prop :=
  match ops with
  | [] => True
  | o :: r => op_ok t o /\ ops_ok (TxCore.tx_step V s t o) r
  end.

Lemma step_inv t o : TI t -> op_ok t o -> TI (TxCore.tx_step V s t o).
Proof.
  intros T H. destruct o as [id|id v|id| |].
  - apply alloc_inv; [exact T | exact (proj1 H)].
  - apply set_inv; assumption.
  - apply flush_inv. exact T.
  - apply flush_all_inv. exact T.
  - apply checkpoint_inv. exact T.
Qed.

Lemma run_inv : forall ops t, TI t -> ops_ok t ops -> TI (TxCore.tx_run V s t ops).
Proof.
  unfold TxCore.tx_run. induction ops as [|o ops IH]; intros t T H; cbn [fold_left]; [exact T|].
  destruct H as [H1 H2]. apply IH; [apply step_inv; assumption | exact H2].
Qed.

Lemma flush_dirty t id : t_dirty (TxCore.do_flush V s t id) = t_dirty t.
Proof.
  unfold TxCore.do_flush. destruct (aget (t_dirty t) id); [|reflexivity].
  destruct (TxCore.mem id (t_flushed t)); [reflexivity|].
  destruct (TxCore.mem id (t_new t)); [reflexivity|].
  destruct (wget old id); [reflexivity|]. destruct (t_fresh t); reflexivity.
Qed.
Lemma flush_all_dirty t : t_dirty (TxCore.flush_all V s t) = t_dirty t.
Proof.
  apply (flush_all_ind (fun t' => t_dirty t' = t_dirty t)); [|reflexivity].
  intros t' id H. rewrite flush_dirty. exact H.
Qed.
Lemma checkpoint_dirty_flushed t :
  t_dirty (TxCore.do_checkpoint V s t) = t_dirty t /\
  t_flushed (TxCore.do_checkpoint V s t) = t_flushed t /\
  t_ckpt (TxCore.do_checkpoint V s t) = true.
Proof. unfold TxCore.do_checkpoint. destruct (t_ckpt t) eqn:E; [repeat split; exact E | repeat split]. Qed.

(* once everything dirty is flushed, a state made of the scheduled writes and a mapping that agrees with the
   transaction's at id reads id as the transaction's last write to it, or as before *)
Lemma ti_reads t m id : TI t ->
  (forall id v, aget (t_dirty t) id = Some v -> In id (t_flushed t)) -> data_id id ->
  wget m id = wget (curmap t) id ->
  TxCore.f_read V {| TxCore.f_disk := TxCore.apply_writes V (TxCore.f_disk V s) (t_sched t); TxCore.f_wal := m |} id =
  match aget (t_dirty t) id with Some v => v | None => TxCore.f_read V s id end.
Proof.
  intros T Hall Hid Hm. unfold TxCore.f_read at 1, TxCore.phys. cbn [TxCore.f_disk TxCore.f_wal]. rewrite Hm.
  fold (TxCore.phys (curmap t) id) (rdphys t id). destruct (aget (t_dirty t) id) as [v|] eqn:E;
    [exact (ti_p2 t T id v E (Hall id v E)) | exact (ti_p1 t T id Hid E)].
Qed.

Lemma ti_commit_reads t limit : TI t ->
  let t1 := TxCore.flush_all V s t in
  (forall id v, aget (t_dirty t1) id = Some v -> In id (t_flushed t1)) ->
  forall id, data_id id ->
  TxCore.f_read V (TxCore.tx_commit V s t limit) id =
  match aget (t_dirty t) id with Some v => v | None => TxCore.f_read V s id end.
Proof.
  intros T t1 Hall id Hid. pose proof (flush_all_inv t T) as T1. fold t1 in T1.
  rewrite <- (flush_all_dirty t). fold t1. unfold TxCore.tx_commit. fold t1.
  case_eq (negb (TxCore.tx_updated_wal V t1)); intros Eu;
    [|case ((0 <? limit) && (limit <=? Z.of_nat (length (TxCore.mapping_update V old t1))))].
  - apply (ti_reads t1 old id T1 Hall Hid). rewrite curmap_get. unfold TxCore.tx_updated_wal in Eu. revert Eu.
    case (t_free t1); [case (t_newmap t1)|]; try discriminate. reflexivity.
  - (* automatic checkpoint: every committed overwrite page is released, the new mapping is that of the transaction *)
    set (t2 := TxCore.do_checkpoint V s t1).
    pose proof (checkpoint_inv t1 T1) as T2. pose proof (checkpoint_dirty_flushed t1) as (D2 & F2 & C2). fold t2 in T2, D2, F2, C2.
    assert (Hall2 : forall id v, aget (t_dirty t2) id = Some v -> In id (t_flushed t2))
      by (rewrite D2, F2; exact Hall).
    rewrite <- D2. apply (ti_reads t2 _ id T2 Hall2 Hid). rewrite curmap_get.
    case (wget (t_newmap t2) id); [reflexivity|].
    case_eq (TxCore.mem id (t_free t2)); [reflexivity|]. intros Em.
    case_eq (wget old id); [|reflexivity]. intros w0 Eo.
    apply mem_false in Em. case Em. pose proof (old_get_val id w0 Eo) as [_ Hk].
    case (ti_ckpt t2 T2 C2 id Hk); [trivial|]. intros [v H]. exact (ti_flushed_old t2 T2 id (Hall2 id v H) Hk).
  - exact (ti_reads t1 _ id T1 Hall Hid eq_refl).
Qed.

(* For EVERY sequence of page allocations, page writes, page flushes, transaction flushes and manual checkpoints,
   every overwrite-page limit: after the commit (whose own flush found enough overwrite pages) every page reads
   as the last value the transaction wrote to it, and every page it did not write reads as before. The reads go
   through the new mapping to the bytes the writer leaves on disk when it executes the scheduled writes in
   schedule order. *)
Theorem commit_reads ops limit :
  ops_ok (TxCore.tx_begin V fresh0) ops ->
  let t := TxCore.tx_run V s (TxCore.tx_begin V fresh0) ops in
  let t1 := TxCore.flush_all V s t in
  (forall id v, aget (TxCore.t_dirty V t1) id = Some v -> In id (TxCore.t_flushed V t1)) ->
  forall id, data_id id ->
  TxCore.f_read V (TxCore.tx_commit V s t limit) id =
  match aget (TxCore.t_dirty V t) id with Some v => v | None => TxCore.f_read V s id end.
Proof. intros Hok. apply ti_commit_reads, run_inv; [apply ti_begin | exact Hok]. Qed.

(* every page write a transaction schedules goes to a page it allocated itself, to a fresh overwrite page, or to the
   original location of a page whose committed contents live in an overwrite page: never to a location the
   committed state reads *)
Definition target_ok (t : txs) (p : Z) : Prop :=
  In p (t_new t) \/ In p fresh0 \/ In p okeys.

Definition sched_ok (t : txs) : Prop :=
  (forall p, In p (map fst (t_sched t)) -> target_ok t p) /\ incl (t_fresh t) fresh0.

Lemma sched_targets_flush t id : sched_ok t -> sched_ok (TxCore.do_flush V s t id).
Proof.
  intros [H U]. destruct t as [d fl nw fr nm sc fh ck]. unfold TxCore.do_flush. fields.
  assert (Hto : forall p v nm' fr' fh', target_ok (TxCore.Build_txs V d fl nw fr nm sc fh ck) p -> incl fh' fresh0 ->
            sched_ok (TxCore.Build_txs V d (id :: fl) nw fr' nm' (sc ++ [(p, v)]) fh' ck)).
  { intros p v nm' fr' fh' Hp Hf. split; [|exact Hf]. fields. intros q Hq. rewrite map_app in Hq.
    apply in_app_or in Hq as [Hq|[<-|[]]]; [exact (H q Hq) | exact Hp]. }
  destruct (aget d id) as [v|]; [|split; assumption]. destruct (TxCore.mem id fl); [split; assumption|].
  destruct (TxCore.mem id nw) eqn:En; [apply Hto; [left; apply mem_in, En | exact U]|].
  destruct (wget old id) as [w0|] eqn:Eo; [apply Hto; [right; right; apply (old_get_val id w0 Eo) | exact U]|].
  destruct fh as [|w fh']; [split; assumption|].
  apply Hto; [right; left; apply U; left; reflexivity | intros q Hq; apply U; right; exact Hq].
Qed.

Lemma sched_targets_run ops t : sched_ok t -> sched_ok (TxCore.tx_run V s t ops).
Proof.
  revert t. apply fold_left_inv. intros t [id|id v|id| |] [H U]; cbn [TxCore.tx_step].
  - split; [|exact U]. fields. intros p Hp. destruct (H p Hp) as [A|A]; [left; right; exact A | right; exact A].
  - destruct (TxCore.mem id (t_flushed t)); split; assumption.
  - apply sched_targets_flush. split; assumption.
  - apply flush_all_ind; [intros t' id; apply sched_targets_flush | split; assumption].
  - unfold TxCore.do_checkpoint. destruct (t_ckpt t); [split; assumption|]. split; [|exact U].
    fields. intros p Hp. rewrite map_app, keys_copies in Hp. apply in_app_or in Hp as [Hp|Hp]; [exact (H p Hp)|].
    right. right. rewrite keys_filter in Hp. apply filter_In in Hp as [Hp _]. exact Hp.
Qed.

(* Whatever an aborted transaction has already flushed (or checkpointed): a reader of the committed state sees
   every page that existed before exactly as before. *)
Theorem aborted_tx_invisible ops id :
  let t := TxCore.tx_run V s (TxCore.tx_begin V fresh0) ops in
  (forall p, In p (t_new t) -> ~ In p ovals) ->     (* the allocator hands out no overwrite page in use (C04) *)
  data_id id -> ~ In id (t_new t) ->
  TxCore.f_read V {| TxCore.f_disk := TxCore.apply_writes V (TxCore.f_disk V s) (t_sched t); TxCore.f_wal := old |} id
  = TxCore.f_read V s id.
Proof.
  intros t Hnew [_ Hf] Hn. unfold TxCore.f_read. cbn [TxCore.f_disk TxCore.f_wal].
  apply (apply_app_untouched _ []). intros Hp.
  assert (Ht : target_ok t (TxCore.phys old id)).
  { apply (sched_targets_run ops (TxCore.tx_begin V fresh0)); [split; [intros p [] | apply incl_refl] | exact Hp]. }
  unfold TxCore.phys in Ht. destruct (wget old id) as [w|] eqn:E.
  - destruct (old_get_val id w E) as [Hw Hk].
    destruct Ht as [A|[A|A]]; [exact (Hnew w A Hw) | exact (nodup_app_disj _ _ w (wf_vals wf) Hw A) | exact (proj1 (wf_disj wf w A) Hw)].
  - destruct Ht as [A|[A|A]]; [exact (Hn A) | exact (Hf A) | exact (proj1 (wget_none_keys old id) E A)].
Qed.
End P.
