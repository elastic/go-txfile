(* C05 -- Queue delivers every flushed event exactly once, in order, byte-identical.
   Framing level: the payload areas of the linked pages form one stream; for EVERY list of events (every
   size that fits the 4-byte size field, incl. sizes ending exactly on page / header boundaries), EVERY
   page payload size, EVERY start position and whatever precedes or follows in the stream, the reader
   gets back exactly the events that were framed, in order; later appends never change what an earlier
   prefix parses to. The page linkage (next / first / last / off headers), the write buffer and flush
   selection are tied to this by the campaign (model parser run on the real page chain; slice-of-events
   oracle through the public API). *)
From VF Require Import PQ PQProofs PQReaderProofs.

Theorem C05_framing_roundtrip : forall P evs pre post,
  Forall (fun e => Z.of_nat (length e) < 256 ^ Z.of_nat hdr_len) evs ->
  parse_from P (pre ++ layout_from P (length pre) evs ++ post) (length pre) (length evs) = Some evs.
Proof. exact parse_layout. Qed.
Print Assumptions C05_framing_roundtrip.

Theorem C05_queue_delivers_what_was_written : forall P evs,
  Forall (fun e => Z.of_nat (length e) < 256 ^ Z.of_nat hdr_len) evs ->
  parse_from P (layout P evs) 0 (length evs) = Some evs.
Proof. exact queue_delivers_what_was_written. Qed.

Theorem C05_later_appends_do_not_disturb : forall P a b,
  Forall (fun e => Z.of_nat (length e) < 256 ^ Z.of_nat hdr_len) a ->
  parse_from P (layout P (a ++ b)) 0 (length a) = Some a.
Proof. exact prefix_stable. Qed.
Print Assumptions C05_later_appends_do_not_disturb.

(* the reader as a state machine (Next / partial Read / skip of the unread rest): for every list of
   events (also events without contents: the code before fix D29 got stuck behind one), every payload size, every context in the stream and EVERY sequence of calls, the reader on the
   bytes reports the same sizes and returns the same bytes as the same calls on the list of events *)
Theorem C05_reader_refines_events : forall P pre evs post ops,
  Forall okev evs ->
  rd_run P (pre ++ layout_from P (length pre) evs ++ post) (length evs)
         {| r_pos := length pre; r_left := None; r_id := 0 |} ops
  = sp_run {| s_rest := evs; s_cur := None |} ops.
Proof. exact reader_refines_events. Qed.
Print Assumptions C05_reader_refines_events.

Theorem C05_reader_drains_everything : forall P pre evs post,
  Forall okev evs ->
  rd_run P (pre ++ layout_from P (length pre) evs ++ post) (length evs)
         {| r_pos := length pre; r_left := None; r_id := 0 |} (drain_ops evs) = drain_out evs.
Proof. exact reader_drains_everything. Qed.

(* the page-level cursor (Skip / Read across page ends) moves by exactly the bytes asked for; a cursor that
   changes page when fewer than a header's worth of bytes are left (a seeded defect) does not *)
Theorem C05_cursor_moves_exactly : forall fuel P pg off n,
  (0 < P)%nat -> (off <= P)%nat -> (n <= fuel)%nat ->
  let '(pg', off') := cur_adv fuel P pg off n in
  cur_lin P pg' off' = (cur_lin P pg off + n)%nat /\ (off' <= P)%nat.
Proof. exact cur_adv_lin. Qed.
Theorem C05_cursor_with_header_threshold_refuted : exists P pg off n,
  (off <= P)%nat /\ let '(pg', off') := cur_adv_thr hdr_len n P pg off n in cur_lin P pg' off' <> (cur_lin P pg off + n)%nat.
Proof. exact skip_threshold_refuted. Qed.

Theorem C05_position_roundtrip : forall ps page off, 0 < ps -> 0 < page -> 0 < off <= ps ->
  parse_position ps (write_position ps page off) = (page, off).
Proof. exact position_roundtrip. Qed.

Theorem C05_id_order : forall a k, 0 < k < 2^63 -> id_less a (a + k) = true /\ id_less (a + k) a = false.
Proof. exact id_less_succ. Qed.

(* non-vacuity: payload 12 bytes; the second header would straddle the page end and is padded *)
Example C05_ex : parse_from 12 (layout 12 [[1;2;3;4;5;6]; [7]; [8;9;10;11;12;13;14;15;16]]) 0 3
                 = Some [[1;2;3;4;5;6]; [7]; [8;9;10;11;12;13;14;15;16]]
                 /\ length (layout 12 [[1;2;3;4;5;6]; [7]]) = 17%nat.
Proof. split; reflexivity. Qed.

(* non-vacuity: Next, a partial Read, Next (skips the rest), Read of everything, Next at the end *)
Example C05_ex_reader :
  rd_run 12 (layout 12 [[1;2;3;4;5;6]; [7]; [8;9;10]]) 3 {| r_pos := 0; r_left := None; r_id := 0 |}
         [RNext; RRead 4; RNext; RRead 9; RNext; RRead 2; RRead 2; RNext]
  = [(Some 6%nat, []); (None, [1;2;3;4]); (Some 1%nat, []); (None, [7]); (Some 3%nat, []); (None, [8;9]); (None, [10]); (Some 0%nat, [])].
Proof. vm_compute. reflexivity. Qed.

(* ---- the writer (Model/PQWriter.v: pq/buffer.go + pq/writer.go; the model's complete buffer state, the queue root and
   the page images of every flush are compared with the implementation after EVERY Write / Next / Flush call of the
   campaigns, also the failing ones). For EVERY sequence of Write (any chunking), Next and Flush calls, whatever the
   flushes do - nothing to flush, success with any page ids, failure before or after the page allocation - and
   whatever the tail page loaded from the file held: the payload areas of all pages ever filled (released ones and the
   ones still in the buffer, each page but the last padded to the payload size) hold exactly: what the tail page held,
   the layout of the completed events (the framing the reader theorems are about), and the frame of the event being
   written (padding, 4 header bytes, the bytes written so far). A Write that reports an error has appended nothing; an
   event is complete after Next even when the implicit flush of Next failed. ---- *)
From VF Require Import PQWriter PQWriterProofs.
Theorem C05_writer_refines_the_event_stream : forall PS, (hdr_len <= payload PS)%nat ->
  forall pages tail endId root ops,
  match tail with Some t => (length (wp_data t) <= payload PS)%nat | None => True end ->
  let base := match tail with Some t => wp_data t | None => [] end in
  let '(s, rs) := w_run PS (w_init PS pages tail endId root) ops in
  let '(done, cur) := spec_run ([], []) ops rs in
  exists h4, length h4 = hdr_len /\
    flat (payload PS) (pdata (ws_hist s ++ b_pages (ws_buf s))) = pre_of PS base done ++ h4 ++ cur.
Proof.
  intros PS HP pages tail endId root ops Ht. cbn zeta.
  pose proof (w_run_lift PS _ _ (SI_kept PS HP _) ops _ [] [] (w_init_SI PS HP pages tail endId root Ht)) as H.
  destruct (w_run PS (w_init PS pages tail endId root) ops) as [s rs].
  destruct (spec_run ([], []) ops rs) as [done cur].
  exact (writer_stream PS s _ done cur H).
Qed.
Print Assumptions C05_writer_refines_the_event_stream.

(* non-vacuity: pages of 40 bytes (12 bytes payload); two events (5 bytes in two chunks, 9 bytes), a flush in the middle of
   the second one that fails late, one that succeeds: three pages, the second event crosses a page end *)
Example C05_ex_writer :
  let ops := [WWrite [1;2] FFailEarly; WWrite [3;4;5] FFailEarly; WNext FFailEarly; WWrite [6;7;8] FFailEarly;
              WFlush (FFailLate [7]); WFlush (FOk [7; 9]); WWrite [9;10;11;12;13;14] FFailEarly; WNext FFailEarly] in
  let '(s, rs) := w_run 40 (w_init 40 5 None 0 {| q_head := None; q_tail := (0, O, 0); q_inuse := 0 |}) ops in
  spec_run ([], []) ops rs = ([[1;2;3;4;5]; [6;7;8;9;10;11;12;13;14]], []) /\
  pdata (ws_hist s ++ b_pages (ws_buf s)) =
    [[5;0;0;0; 1;2;3;4;5]; [9;0;0;0; 6;7;8;9;10;11;12;13]; [14; 0;0;0;0]] /\
  map wp_id (ws_hist s ++ b_pages (ws_buf s)) = [7; 0; 0].
Proof. vm_compute. repeat split. Qed.

(* ---- what a flush publishes (ghost field wp_disk of the model: the payload last written to the file for a page). For
   EVERY run of Write / Next / Flush calls with any flush outcomes, followed by a Next or Flush call whose flush
   succeeds: the reader's parser (parse_from, the function of C05_framing_roundtrip), run on the page payloads AS THEY
   WERE WRITTEN TO THE FILE - released pages and the buffer pages up to the page of the open event's header - from the
   position behind what the tail page held before, returns exactly the events completed so far: none missing, none
   twice, none truncated, whatever was flushed earlier, whichever flushes failed in between, however the events
   straddle pages. ---- *)
Theorem C05_flush_publishes_the_completed_events : forall PS, (hdr_len <= payload PS)%nat ->
  forall pages tail endId root ops o,
  match tail with Some t => (length (wp_data t) <= payload PS)%nat /\ wp_dirty t = false /\ wp_disk t = Some (wp_data t) | None => True end ->
  let base := match tail with Some t => wp_data t | None => [] end in
  let '(s1, rs) := w_run PS (w_init PS pages tail endId root) ops in
  let '(s2, r) := w_step PS s1 o in
  let '(done, cur) := spec_step (spec_run ([], []) ops rs) o r in
  match o, r with
  | WNext _, WOk (Some (FDone _ _ _, _)) | WFlush _, WOk (Some (FDone _ _ _, _)) =>
      Forall (fun e => Z.of_nat (length e) < 256 ^ Z.of_nat hdr_len) done ->
      exists i off, b_hdr (ws_buf s2) = Some (i, off) /\
        parse_from (payload PS) (flat (payload PS) (map disk_data (cores (ws_hist s2 ++ firstn (S i) (b_pages (ws_buf s2))))))
                   (length base) (length done) = Some done
  | _, _ => True
  end.
Proof. exact flush_publishes_events. Qed.
Print Assumptions C05_flush_publishes_the_completed_events.

(* non-vacuity: the run of C05_ex_writer ends with a Next; a Flush that succeeds follows: three pages in the file *)
Example C05_ex_flush_publishes :
  let ops := [WWrite [1;2] FFailEarly; WWrite [3;4;5] FFailEarly; WNext FFailEarly; WWrite [6;7;8] FFailEarly;
              WFlush (FFailLate [7]); WFlush (FOk [7; 9]); WWrite [9;10;11;12;13;14] FFailEarly; WNext FFailEarly] in
  let '(s1, rs) := w_run 40 (w_init 40 5 None 0 {| q_head := None; q_tail := (0, O, 0); q_inuse := 0 |}) ops in
  let '(s2, r) := w_step 40 s1 (WFlush (FOk [11; 12])) in
  (exists imgs p a cb, r = WOk (Some (FDone imgs p a, cb)) /\ map (fun im => fst (fst (fst (fst (fst im))))) imgs = [7; 11; 12]) /\
  map disk_data (cores (ws_hist s2 ++ firstn 1 (b_pages (ws_buf s2)))) = [[5;0;0;0; 1;2;3;4;5]; [9;0;0;0; 6;7;8;9;10;11;12;13]; [14; 0;0;0;0]] /\
  q_tail (ws_root s2) = (12, 29%nat, 2).
Proof. vm_compute. split; [repeat eexists|split; reflexivity]. Qed.
