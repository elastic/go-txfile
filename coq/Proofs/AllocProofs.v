(* alloc.go, the data area: its invariant (DataInv); the three ways pages leave it brought to one shape (TakeEff,
   through take_intro), which is all the later files know of the data allocators; dataAllocator.Free; the rollback
   of one area; the data end marker when the size limit is raised on open. *)
From VF Require Import Region Freelist Alloc RegionProofs.
From Coq Require Import Lia ZifyBool.

Notation Dset a := (fregions (a_free (data a))).
Notation Mset a := (fregions (a_free (meta a))).

Lemma area_regions_zero fuel id : area_regions fuel id 0 = [].
Proof. destruct fuel; reflexivity. Qed.
(* fuel 4 is what the model calls allocFromArea with; below 2^32 pages it makes one region *)
Lemma area_regions_one id count : 0 < count < 2^32 -> area_regions 4 id count = [{| rid := id; rcount := count |}].
Proof.
  intros H. change (area_regions 4 id count) with
    (if count <=? 0 then [] else {| rid := id; rcount := Z.min count u32max |} ::
       area_regions 3 (id + Z.min count u32max) (count - Z.min count u32max)).
  replace (count <=? 0) with false by lia. unfold u32max. rewrite Z.min_l, Z.sub_diag by lia. reflexivity.
Qed.

Lemma area_regions_spec id count : 0 <= count < 2^32 ->
  wfl id (area_regions 4 id count) /\ (forall x, inl x (area_regions 4 id count) <-> id <= x < id + count) /\
  count_pages (area_regions 4 id count) = count.
Proof.
  intros H. destruct (Z.eq_dec count 0) as [->|Hne].
  - rewrite area_regions_zero. split; [constructor|]. split; [|reflexivity].
    intros x. pose proof (inl_nil x). split; [tauto | lia].
  - rewrite area_regions_one by lia. split; [constructor; [cbn; lia..|constructor]|].
    split; [intros x; rewrite inl_single; rlia | rewrite count_pages_cons, count_pages_nil; cbn; lia].
Qed.

Definition below (f : freelist) (e : Z) : Prop := forall id, inl id (fregions f) -> id < e.

(* 2: pages 0 and 1 hold the two file headers and are never handed out *)
Record DataInv (a : allocst) : Prop := {
  di_wf : wff 2 (a_free (data a));
  di_below : below (a_free (data a)) (a_end (data a));
  di_end : 2 <= a_end (data a) }.

Lemma data_avail_nonneg a : DataInv a -> 0 <= data_avail a.
Proof.
  intros [Wf _ _]. apply wff_avail_nonneg in Wf. unfold data_avail, noLimit.
  destruct (maxPages a =? 0); [lia|]. destruct (a_end (data a) <? maxPages a) eqn:E; lia.
Qed.

(* The bound is the larger of the old marker and the limit because a file may already extend beyond a limit that
   was lowered on open (D17). A preorder, so it holds along every sequence of steps each of which satisfies it. *)
Definition within_limit (a a' : allocst) : Prop :=
  (a_end (data a') <= Z.max (a_end (data a)) (maxPages a) /\
   a_end (meta a') <= Z.max (a_end (meta a)) (maxPages a)) /\
  maxPages a' = maxPages a.

Lemma within_limit_refl a : within_limit a a.
Proof. unfold within_limit. lia. Qed.

Lemma within_limit_trans a b c : within_limit a b -> within_limit b c -> within_limit a c.
Proof. unfold within_limit. lia. Qed.

Lemma within_limit_same a a1 a2 :
  within_limit a a1 -> data a2 = data a1 -> a_end (meta a2) = a_end (meta a1) -> maxPages a2 = maxPages a1 ->
  within_limit a a2.
Proof. unfold within_limit. intros H -> -> ->. exact H. Qed.

Lemma data_alloc_cont_limit a t n r a' t' :
  0 < n -> 0 < maxPages a -> data_alloc_cont a t n = (r, a', t') -> within_limit a a'.
Proof.
  intros Hn Hmx. unfold data_alloc_cont, within_limit.
  destruct (data_avail a <? n); [intros [= _ <- _]; lia|].
  destruct (fl_alloc_cont false (a_free (data a)) n) as [[reg|] f'].
  - intros [= _ <- _]. cbn [data meta a_end maxPages set_data]. lia.
  - destruct (a_end (data a) <? maxPages a) eqn:E1; destruct (_ && _) eqn:E2; intros [= _ <- _];
      cbn [data meta a_end maxPages set_data set_meta]; try destruct (a_end (meta a) <? _) eqn:E3; lia.
Qed.

Lemma data_alloc_regions_limit a t n regs cnt a' t' :
  0 < maxPages a -> data_alloc_regions a t n = (regs, cnt, a', t') -> within_limit a a'.
Proof.
  intros Hmx. unfold data_alloc_regions, data_avail, alloc_from_freelist, within_limit.
  replace (maxPages a =? 0) with false by lia.
  destruct (_ <? n) eqn:Eav; [intros [= _ _ <- _]; lia|].
  destruct (fl_alloc_regions _ _ _) as [regs1 f'].
  intros [= _ _ <- _]. cbn [data meta a_end maxPages set_data set_meta].
  destruct (a_end (data a) <? maxPages a) eqn:E1; destruct (0 <? n - _) eqn:E2; cbn [andb];
    try destruct (a_end (meta a) <? _) eqn:E3; lia.
Qed.

(* What a step does that takes pages out of the data area: the regions [ra] leave the data free list and are
   recorded as allocated, [rn] (from the free list or from behind the end marker) are recorded as new, and [mv]
   is handed to the meta area: nothing for Tx.Alloc, all of them for tryGrow. *)
Set Implicit Arguments.
Record TakeEff (a : allocst) (t : txst) (a' : allocst) (t' : txst) (ra rn mv : regions) : Prop := {
  te_wf : wfl 2 (ra ++ rn);
  te_ra : forall id, inl id ra -> inl id (Dset a);
  te_rn : forall id, inl id rn -> inl id (Dset a) \/ a_end (data a) <= id;
  te_gone : forall id, inl id (ra ++ rn) -> ~ inl id (Dset a') /\ id < a_end (data a');
  te_sub : forall id, inl id (Dset a') -> inl id (Dset a);
  te_cover : forall id, inl id (Dset a) -> inl id (ra ++ rn) \/ inl id (Dset a');
  te_data : DataInv a';
  te_end : a_end (data a) <= a_end (data a');
  te_mend : a_end (data a) <= a_end (meta a) -> a_end (meta a') = Z.max (a_end (meta a)) (a_end (data a'));
  te_limit : 0 < maxPages a -> within_limit a a';
  te_alloc : t_allocated (tdata t') = set_add_all (regions_ids ra) (t_allocated (tdata t));
  te_new : t_new (tdata t') = set_add_all (regions_ids rn) (t_new (tdata t));
  te_mwf : wff 2 (a_free (meta a)) -> wff 2 (a_free (meta a'));
  te_meta : forall id, inl id (Mset a') <-> inl id (Mset a) \/ inl id mv;
  te_total : metaTotal a' = metaTotal a + count_pages mv;
  te_moved : moveToMeta t' = moveToMeta t ++ mv;
  te_static : maxPages a' = maxPages a /\ pageSize a' = pageSize a /\ flRoot a' = flRoot a /\ flPages a' = flPages a;
  te_tx : tmeta t' = tmeta t /\ st_ovf_alloc t' = st_ovf_alloc t /\ ovf t' = ovf t /\ pct t' = pct t /\
          t_end (tdata t') = t_end (tdata t) /\ t_freed (tdata t') = t_freed (tdata t) }.
Unset Implicit Arguments.

(* The three ways the data allocators hand out pages have one shape: the regions [L] leave the free list, [k] pages
   are taken behind the end marker, and nothing else changes but the end of the file. *)
Lemma take_intro a t a' t' ra rn L k :
  DataInv a -> wff 2 (a_free (data a')) -> wfl 2 L -> 0 <= k < 2^32 ->
  (forall id, inl id (Dset a) <-> inl id L \/ inl id (Dset a')) -> (forall id, inl id L -> ~ inl id (Dset a')) ->
  a_end (data a') = a_end (data a) + k ->
  ra ++ rn = L ++ area_regions 4 (a_end (data a)) k -> (forall id, inl id ra -> inl id L) ->
  (a_end (data a) <= a_end (meta a) -> a_end (meta a') = Z.max (a_end (meta a)) (a_end (data a'))) ->
  (0 < maxPages a -> within_limit a a') ->
  a_free (meta a') = a_free (meta a) -> metaTotal a' = metaTotal a ->
  maxPages a' = maxPages a /\ pageSize a' = pageSize a /\ flRoot a' = flRoot a /\ flPages a' = flPages a ->
  t_allocated (tdata t') = set_add_all (regions_ids ra) (t_allocated (tdata t)) ->
  t_new (tdata t') = set_add_all (regions_ids rn) (t_new (tdata t)) -> moveToMeta t' = moveToMeta t ->
  tmeta t' = tmeta t /\ st_ovf_alloc t' = st_ovf_alloc t /\ ovf t' = ovf t /\ pct t' = pct t /\
    t_end (tdata t') = t_end (tdata t) /\ t_freed (tdata t') = t_freed (tdata t) ->
  TakeEff a t a' t' ra rn [].
Proof.
  intros [Wf Hb He] Wf' WL Hk Hsplit Hdis Hend Hshape Hra Hmend Hlim Mf Mt St HA HN Hmv Tx.
  destruct (area_regions_spec (a_end (data a)) k Hk) as (WA & SA & _).
  assert (Hin: forall id, inl id (ra ++ rn) <-> inl id L \/ a_end (data a) <= id < a_end (data a) + k)
    by (intros id; rewrite Hshape, inl_app, SA; reflexivity).
  assert (HL: forall id, inl id L -> id < a_end (data a)) by (intros id H; apply Hb, Hsplit; left; exact H).
  assert (Hb': forall id, inl id (Dset a') -> id < a_end (data a)) by (intros id H; apply Hb, Hsplit; right; exact H).
  constructor; try assumption.
  - rewrite Hshape. apply wfl_app. exists (a_end (data a)). split_all; [exact He | exact WL | exact HL | exact WA].
  - intros id H. apply Hsplit. left. apply Hra, H.
  - intros id H. destruct (proj1 (Hin id)) as [H0|H0]; [apply inl_app; right; exact H | left; apply Hsplit; left; exact H0 | right; apply H0].
  - intros id H. rewrite Hend. apply Hin in H as [H|H].
    + split; [exact (Hdis id H) | apply HL in H; lia].
    + split; [intros Hf; apply Hb' in Hf; lia | lia].
  - intros id H. apply Hsplit. right. exact H.
  - intros id H. apply Hsplit in H as [H|H]; [left; apply Hin; left; exact H | right; exact H].
  - constructor; [exact Wf' | intros id H; apply Hb' in H; lia | lia].
  - lia.
  - rewrite Mf. auto.
  - intros id. rewrite Mf. symmetry. apply inl_nil_r.
  - rewrite Mt, count_pages_nil. symmetry. apply Z.add_0_r.
  - rewrite Hmv. symmetry. apply app_nil_r.
Qed.

(* Tx.Alloc / Tx.AllocN: [ra] is taken from the front of the free list, the missing pages [rn] behind the end marker *)
Lemma data_alloc_regions_take a t n regs cnt a' t' :
  DataInv a -> 0 <= n < 2^32 -> data_alloc_regions a t n = (regs, cnt, a', t') ->
  (data_avail a < n /\ regs = [] /\ cnt = 0 /\ a' = a /\ t' = t) \/
  (n <= data_avail a /\ cnt = n /\ exists ra rn, regs = ra ++ rn /\ TakeEff a t a' t' ra rn [] /\
     (forall id, inl id rn -> a_end (data a) <= id) /\ count_pages regs = n /\
     a_free (meta a') = a_free (meta a) /\ (maxPages a <> 0 -> data_avail a' = data_avail a - n)).
Proof.
  intros ID Hn E. pose proof (fun Hm => data_alloc_regions_limit a t n regs cnt a' t' Hm E) as L.
  pose proof (wff_avail_nonneg _ _ (di_wf _ ID)) as Hav0. revert E. unfold data_alloc_regions, alloc_from_freelist.
  destruct (data_avail a <? n) eqn:Eav; [intros [= <- <- <- <-]; left; repeat split; lia|].
  set (f := a_free (data a)) in *. set (e := a_end (data a)) in *. set (got := Z.min n (avail f)).
  destruct (fl_alloc_regions false f got) as [ra f'] eqn:Ea.
  destruct (fl_alloc_regions_spec false 2 f got ra f' (di_wf _ ID) ltac:(lia) Ea) as (Wf' & W1 & Hok & _ & Hset & Hdis).
  destruct (Hok ltac:(lia)) as [C1 Av']. set (rest := n - got).
  replace (if 0 <? rest then area_regions 4 e rest else []) with (area_regions 4 e rest)
    by (destruct (0 <? rest) eqn:E0; [reflexivity | replace rest with 0 by lia; reflexivity]).
  replace (if 0 <? rest then e + rest else e) with (e + rest) by (destruct (0 <? rest) eqn:E0; lia).
  destruct (area_regions_spec e rest ltac:(lia)) as (_ & S2 & C2). set (rn := area_regions 4 e rest) in *.
  intros [= <- <- <- <-]. right. split; [lia|]. split; [reflexivity|]. exists ra, rn.
  split; [reflexivity|]. split_all.
  - apply take_intro with (L := ra) (k := rest); try assumption; try reflexivity; [lia | auto | | repeat split | repeat split; cbn; lia].
    intros Hle. cbn [data meta a_end set_data set_meta].
    destruct (0 <? rest) eqn:E1; destruct (a_end (meta a) <? e + rest) eqn:E2; cbn [andb]; lia.
  - intros id H. apply S2 in H. lia.
  - rewrite count_pages_app. lia.
  - reflexivity.
  - intros Hmp. unfold data_avail in Eav |- *. cbn [data a_free a_end maxPages set_meta set_data]. subst f e.
    replace (maxPages a =? 0) with false in Eav |- * by lia.
    destruct (a_end (data a) <? maxPages a) eqn:E1; destruct (a_end (data a) + rest <? maxPages a) eqn:E2; lia.
Qed.

Theorem data_alloc_regions_spec a t n regs cnt a' t' :
  DataInv a -> 0 < n < 2^32 ->
  data_alloc_regions a t n = (regs, cnt, a', t') ->
  (data_avail a < n -> regs = [] /\ cnt = 0 /\ a' = a /\ t' = t) /\
  (n <= data_avail a ->
     cnt = n /\ count_pages regs = n /\ wfl 2 regs /\
     (* every page handed out was free: in the data free list, or beyond the end of the data area *)
     (forall id, inl id regs -> inl id (fregions (a_free (data a))) \/ a_end (data a) <= id) /\
     (* and is not free any more: it can not be handed out again *)
     (forall id, inl id regs -> ~ inl id (fregions (a_free (data a'))) /\ id < a_end (data a')) /\
     DataInv a' /\
     (forall id, inl id (fregions (a_free (data a'))) -> inl id (fregions (a_free (data a)))) /\
     a_free (meta a') = a_free (meta a) /\ metaTotal a' = metaTotal a /\ maxPages a' = maxPages a /\
     (maxPages a <> 0 -> data_avail a' = data_avail a - n)).
Proof.
  intros ID Hn E.
  destruct (data_alloc_regions_take a t n regs cnt a' t' ID ltac:(lia) E)
    as [(Hlt & H)|(Hge & Hcnt & ra & rn & -> & T & Hrn & Hc & Hmf & Hav)]; [split; [intros _; exact H | lia]|].
  split; [lia|]. intros _.
  split_all; try assumption; [exact (te_wf T) | | exact (te_gone T) | exact (te_data T) | exact (te_sub T) | | apply (te_static T)].
  - intros id H. apply inl_app in H as [H|H]; [left; exact (te_ra T H) | right; exact (Hrn id H)].
  - rewrite (te_total T), count_pages_nil. lia.
Qed.

(* as in the source, the region is recorded in [new] also when it comes from the free list: [ra] is empty *)
Lemma data_alloc_cont_take a t n r a' t' :
  DataInv a -> 0 < n < 2^32 -> data_alloc_cont a t n = (r, a', t') ->
  match r with
  | None => a' = a /\ t' = t
  | Some reg => TakeEff a t a' t' [] [reg] []
  end.
Proof.
  intros ID Hn E. pose proof (fun Hm => data_alloc_cont_limit a t n r a' t' (proj1 Hn) Hm E) as L.
  revert E. unfold data_alloc_cont.
  destruct (data_avail a <? n) eqn:Eav; [intros [= <- <- <-]; split; reflexivity|].
  destruct (fl_alloc_cont false (a_free (data a)) n) as [[reg|] f'] eqn:Ec.
  - intros [= <- <- <-].
    destruct (fl_alloc_cont_spec 2 _ n _ _ (di_wf _ ID) ltac:(lia) Ec) as (Hc & Hlo & _ & Wf' & _ & Hset & Hdis).
    apply take_intro with (L := [reg]) (k := 0); try assumption; try reflexivity; cbn [data meta a_end a_free set_data]; auto; try lia.
    + constructor; [exact Hlo | lia | constructor].
    + intros id. rewrite inl_single. apply Hset.
    + intros id H. apply Hdis, inl_single, H.
    + intros id H. destruct (inl_nil _ H).
    + cbn [regions_ids flat_map]. rewrite app_nil_r. reflexivity.
    + repeat split; cbn; lia.
  - destruct (_ && _) eqn:E2; [intros [= <- <- <-]; split; reflexivity|].
    rewrite area_regions_one by lia. cbn [last]. intros [= <- <- <-].
    apply take_intro with (L := []) (k := n); try assumption; try reflexivity; cbn [data meta a_end a_free set_data set_meta]; auto; try lia.
    + exact (di_wf _ ID).
    + constructor.
    + intros id. pose proof (inl_nil id). tauto.
    + intros id H. destruct (inl_nil _ H).
    + rewrite area_regions_one by lia. reflexivity.
    + intros Hle. destruct (a_end (meta a) <? a_end (data a) + n) eqn:E3; lia.
    + repeat split; cbn; lia.
Qed.

Lemma data_free_committed_eq a t id a' t' :
  set_mem id (t_new (tdata t)) = false -> data_free a t id = Some (a', t') ->
  2 <= id < a_end (data a) /\ a' = a /\
  t' = tx_with (tx_stats t 0 1 0 0 0 0 0) (moveToMeta t) (ta_freed (tdata t) id) (tmeta t).
Proof.
  intros Hnew. unfold data_free.
  destruct ((id <? 2) || (a_end (data a) <=? id)) eqn:Eb; [discriminate|].
  rewrite Hnew. cbn [negb]. intros [= <- <-]. split; [lia | auto].
Qed.

(* Tx.Free of a page allocated by the running transaction: the page goes back to the free list. When the last free
   region then reaches the end marker, and the page lies behind the end marker of the begin of the transaction, the
   data area shrinks to the start of that region, but not below the old marker: the free list is cut at the new end
   marker, every other page in use stays inside, and the end of the file follows if it was the end of the data area. *)
Lemma data_free_fresh_eff a t id a' t' :
  DataInv a -> set_mem id (t_new (tdata t)) = true -> ~ inl id (Dset a) -> data_free a t id = Some (a', t') ->
  t' = tx_stats t 0 1 0 0 0 0 0 /\
  (maxPages a' = maxPages a /\ pageSize a' = pageSize a /\ a_free (meta a') = a_free (meta a) /\
   metaTotal a' = metaTotal a /\ flRoot a' = flRoot a /\ flPages a' = flPages a) /\
  a_end (meta a') = (if a_end (meta a) =? a_end (data a) then a_end (data a') else a_end (meta a)) /\
  wff 2 (a_free (data a')) /\ 2 <= a_end (data a') <= a_end (data a) /\
  Z.min (a_end (data a)) (t_end (tdata t)) <= a_end (data a') /\
  (forall x, inl x (Dset a') <-> (x = id \/ inl x (Dset a)) /\ x < a_end (data a')) /\
  (forall x, x < a_end (data a) -> x <> id -> ~ inl x (Dset a) -> ~ inl x (Dset a') /\ x < a_end (data a')).
Proof.
  intros [Wf Hb He] Hnew Hnf E.
  assert (Hid: 2 <= id < a_end (data a)) by (unfold data_free in E; destruct (_ || _) eqn:Eb in E; [discriminate | lia]).
  destruct (fl_add_region_spec (a_free (data a)) (single id) 2 Wf ltac:(cbn; lia) ltac:(cbn; lia)) as ([W1 Hav1] & Hset1 & _).
  { intros x Hx. apply inr_single in Hx as <-. exact Hnf. }
  set (f := fl_add_region (a_free (data a)) (single id)) in *. set (e := a_end (data a)) in *.
  assert (Hin1: forall x, inl x (fregions f) <-> x = id \/ inl x (Dset a)).
  { intros x. rewrite Hset1, inr_single. split; intros [H|H]; auto. }
  (* the new end marker e' and the new free list f': f without the pages from e' on *)
  assert (Hex: exists e' f', released 2 (fregions f) e (fregions f') (e - e') /\ avail f' = avail f - (e - e') /\
            2 <= e' /\ Z.min e (t_end (tdata t)) <= e' /\
            (a' = shrink_end a e' f' \/ e' = e /\ a' = set_data a {| a_end := e; a_free := f' |}) /\
            t' = tx_stats t 0 1 0 0 0 0 0).
  { revert E. unfold data_free. change {| rid := id; rcount := 1 |} with (single id). fold f e.
    replace ((id <? 2) || (e <=? id)) with false by lia. rewrite Hnew. cbn [negb]. set (old := t_end (tdata t)).
    assert (Hb1: forall x, inl x (fregions f) -> x < e).
    { intros x Hx. apply Hin1 in Hx as [->|Hx]; [lia | apply Hb, Hx]. }
    destruct (id <=? old) eqn:E1; [|destruct (rend (last_region (fregions f)) <? e) eqn:E2].
    1,2: intros [= <- <-]; exists e, f; rewrite Z.sub_diag, Z.sub_0_r;
      split_all; [apply released_none; assumption | reflexivity | exact He | apply Z.le_min_l | right; split; reflexivity | reflexivity].
    (* the last free region lr reaches the end marker: the data area shrinks *)
    assert (Hne: fregions f <> []) by (intros Hnil; apply (inl_nil id); rewrite <- Hnil; apply Hin1; left; reflexivity).
    unfold last_region in *. destruct (exists_last Hne) as (pre & lr & Hsplit). rewrite Hsplit in W1, Hb1, E2 |- *. rewrite last_last in E2 |- *. rewrite removelast_last.
    destruct (wfl_snoc_inv _ _ _ W1) as (_ & _ & Hclr & Hlolr).
    assert (Hlr: rend lr = e).
    { assert (rend lr - 1 < e) by (apply Hb1, inl_app; right; apply inl_single; rlia). lia. }
    rewrite <- Hlr. clear Hb1 Hin1 Hset1 Hb Wf Hnf. unfold rend in *.
    destruct (rid lr <? old) eqn:E3; intros [= <- <-].
    - exists old, {| avail := avail f - (rid lr + rcount lr - old);
                       fregions := pre ++ [{| rid := rid lr; rcount := rcount lr - (rid lr + rcount lr - old) |}] |}.
      split_all; [cbn [fregions] | reflexivity | lia | lia | left; reflexivity | reflexivity].
      replace (rid lr + rcount lr - old) with (rcount lr - (rcount lr - (rid lr + rcount lr - old))) at 2 by ring.
      apply released_last; [exact W1 | lia | right; split; [lia | reflexivity]].
    - exists (rid lr), {| avail := avail f - rcount lr; fregions := pre |}.
      split_all; [cbn [fregions] | cbn [avail]; lia | lia | lia | left; reflexivity | reflexivity].
      replace (rid lr + rcount lr - rid lr) with (rcount lr - 0) by ring.
      apply released_last; [exact W1 | lia | left; split; reflexivity]. }
  destruct Hex as (e' & f' & (He' & W' & Hcut & Hoff & Hcnt) & Hav' & He2 & Hmin & Ha & ->).
  split; [reflexivity|].
  assert (Hd: data a' = {| a_end := e'; a_free := f' |}) by (destruct Ha as [-> | [-> ->]]; reflexivity).
  rewrite Hd. cbn [a_end a_free].
  replace (e - (e - e')) with e' in Hcut, Hoff by ring.
  split; [destruct Ha as [-> | [_ ->]]; repeat split|].
  split; [destruct Ha as [-> | [-> ->]]; cbn; [reflexivity | destruct (a_end (meta a) =? e) eqn:Em; lia]|].
  split; [split; [exact W' | lia]|]. split; [lia|]. split; [exact Hmin|].
  split; intros x.
  - rewrite Hcut, Hin1. reflexivity.
  - intros Hx Hne Hnd. assert (Hnf': ~ inl x (fregions f)) by (intros [->|X]%Hin1; [exact (Hne eq_refl) | exact (Hnd X)]).
    split; [intros [X _]%Hcut; exact (Hnf' X)|].
    destruct (Z_lt_ge_dec x e') as [|Hge]; [assumption|]. destruct (Hnf' (Hoff x ltac:(lia))).
Qed.

(* The free list after rollback, as a set: exactly the pages below the restored end marker that were
   free before the rollback or had been allocated from the free list by the transaction. In particular
   nothing at or beyond the restored end marker stays in the list (D9). *)
Theorem area_rollback_spec ar x :
  wff 2 (a_free ar) -> below (a_free ar) (a_end ar) ->
  sorted_from 2 (t_allocated x) -> 2 <= t_end x ->
  a_end ar - t_end x < 2^32 ->
  (forall id, In id (t_allocated x) -> id < t_end x -> ~ inl id (fregions (a_free ar))) ->
  let ar' := area_rollback ar x in
  a_end ar' = t_end x /\ wff 2 (a_free ar') /\
  (forall id, inl id (fregions (a_free ar')) <->
      id < t_end x /\ (inl id (fregions (a_free ar)) \/ In id (t_allocated x))) /\
  below (a_free ar') (a_end ar').
Proof.
  intros Wf Hbelow Ss He Hsmall Hdis. unfold area_rollback. cbn zeta.
  set (alloc := filter (fun id => id <? t_end x) (t_allocated x)).
  destruct (ids_regions_spec alloc 2 (sorted_from_filter _ _ _ Ss)) as (Wi & Hiset & _).
  assert (Hain: forall id, In id alloc <-> In id (t_allocated x) /\ id < t_end x)
    by (intros id; unfold alloc; rewrite filter_In, Z.ltb_lt; tauto).
  set (f1 := if t_end x <? a_end ar
             then fl_remove_region (a_free ar) {| rid := t_end x; rcount := (a_end ar - t_end x) mod 2 ^ 32 |}
             else a_free ar).
  assert (H1: wff 2 f1 /\ (forall id, inl id (fregions f1) <-> inl id (fregions (a_free ar)) /\ id < t_end x)).
  { unfold f1. destruct (t_end x <? a_end ar) eqn:E.
    - destruct (fl_remove_region_spec (a_free ar) {| rid := t_end x; rcount := (a_end ar - t_end x) mod 2 ^ 32 |} 2 Wf) as (W & Hs).
      split; [exact W|]. intros id. rewrite Hs. unfold inr, rend. cbn. rewrite Z.mod_small by lia.
      split; intros [Ha Hb]; split; auto; pose proof (Hbelow _ Ha); lia.
    - split; [exact Wf|]. intros id. split; [intros H; split; [exact H | pose proof (Hbelow _ H); lia] | intros [H _]; exact H]. }
  destruct H1 as (Wf1 & Hs1).
  assert (Hd: disjoint_l (fregions f1) (ids_regions alloc)).
  { intros id Ha Hb. apply Hs1 in Ha as [Ha _]. apply Hiset in Hb. apply Hain in Hb as [Hb Hlt]. exact (Hdis id Hb Hlt Ha). }
  destruct (fl_add_regions_spec f1 (ids_regions alloc) 2 Wf1 Wi Hd) as (W2 & Hs2 & _).
  cbn [a_end a_free].
  assert (Hset: forall id, inl id (fregions (fl_add_regions f1 (ids_regions alloc))) <->
      id < t_end x /\ (inl id (fregions (a_free ar)) \/ In id (t_allocated x))).
  { intros id. rewrite Hs2, Hs1, Hiset, Hain. clear - id. tauto. }
  split; [reflexivity|]. split; [exact W2|]. split; [exact Hset|].
  intros id H. apply Hset in H. tauto.
Qed.

(* the allocator after an open with FlagUpdMaxSize has replaced the limit *)
Definition with_max (a : allocst) (mp : Z) : allocst :=
  {| maxPages := mp; pageSize := pageSize a; meta := meta a; metaTotal := metaTotal a;
     data := data a; flRoot := flRoot a; flPages := flPages a |}.

Theorem grow_exact a newMax : 0 < maxPages a -> a_end (data a) <= maxPages a -> maxPages a <= newMax ->
  data_avail (with_max a newMax) = data_avail a + (newMax - maxPages a).
Proof.
  intros Hpos Hend Hle. unfold data_avail, with_max. cbn [maxPages data].
  replace (maxPages a =? 0) with false by lia. replace (newMax =? 0) with false by lia.
  destruct (a_end (data a) <? maxPages a) eqn:E1; destruct (a_end (data a) <? newMax) eqn:E2; lia.
Qed.

(* a former overflow area (meta pages behind the data area, past the old limit) is skipped: after the repair of D12
   the grow transaction moves the data end marker forward to min(meta end, new limit), so no page id of the overflow
   area can come from the end of the data area; the marker is never moved back (D20: the first version of the
   repair set it to that value unconditionally, below live data pages of a file that extends beyond the new
   limit) *)
Theorem grow_skips_overflow_area oldMax newMax dataEnd metaEnd id :
  0 < oldMax -> oldMax < metaEnd -> (newMax = 0 \/ oldMax < newMax) ->
  dataEnd <= id < metaEnd ->                       (* a page behind the data area: the overflow area *)
  let e := grow_data_end oldMax newMax dataEnd metaEnd in
  (* pages handed out from the end of the data area have ids in [e, newMax) *)
  ~ (e <= id /\ (newMax = 0 \/ id < newMax)).
Proof.
  intros Hpos Hov Hgrow Hid. unfold grow_data_end. cbn zeta.
  replace (0 <? oldMax) with true by lia. replace (oldMax <? metaEnd) with true by lia.
  destruct Hgrow as [->|Hg].
  - cbn. lia.
  - replace (newMax =? 0) with false by lia. replace (oldMax <? newMax) with true by lia. cbn [andb orb].
    replace (0 <? newMax) with true by lia. cbn [andb].
    destruct (newMax <? metaEnd) eqn:E; lia.
Qed.

(* so every live data page stays inside the data area *)
Theorem grow_never_lowers oldMax newMax dataEnd metaEnd :
  dataEnd <= grow_data_end oldMax newMax dataEnd metaEnd.
Proof. unfold grow_data_end. destruct (_ && _ && _); lia. Qed.

(* D20: the first version of the repair *)
Definition grow_data_end_v1 (oldMax newMax dataEnd metaEnd : Z) : Z :=
  if (0 <? oldMax) && (oldMax <? metaEnd) && ((newMax =? 0) || (oldMax <? newMax))
  then (if (0 <? newMax) && (newMax <? metaEnd) then newMax else metaEnd)
  else dataEnd.
Theorem grow_v1_lowers_refuted : exists oldMax newMax dataEnd metaEnd,
  0 < oldMax /\ oldMax < newMax /\ dataEnd <= metaEnd /\ grow_data_end_v1 oldMax newMax dataEnd metaEnd < dataEnd.
Proof. exists 64, 100, 156, 156. vm_compute. repeat split; discriminate. Qed.
