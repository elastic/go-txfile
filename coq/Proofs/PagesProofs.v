(* Linked meta pages: what the paging writer writes is what the readers of the open path read back
   (free lists and overwrite mapping, any number of pages, also pre-allocated pages that stay empty). *)
From VF Require Import Region Freelist Pages BytesProofs CodecProofs.
From Coq Require Import Lia ZifyBool.

Definition valid_region (r : region) : Prop := 1 <= rcount r < 2^32 /\ 0 <= rid r < 2^55.
Definition enc_entry (e : bool * region) : list Z := encode_region (fst e) (snd e).

Lemma decode_entries_step n e rest : valid_region (snd e) ->
  decode_entries (S n) (enc_entry e ++ rest) = option_map (cons e) (decode_entries n rest).
Proof.
  intros [Hc Hi]. destruct (region_roundtrip (fst e) (snd e) rest Hc Hi) as [Hd Hl]. fold (enc_entry e) in Hd, Hl.
  assert (Hsz : Z.to_nat (region_enc_size (snd e)) = length (enc_entry e)) by lia.
  assert (H8 : (8 <= length (enc_entry e))%nat)
    by (unfold region_enc_size in Hl; destruct (rcount (snd e) <? entryOverflow); lia).
  cbn [decode_entries]. rewrite Hd, Hsz, app_length. cbn iota beta.
  rewrite (proj2 (Nat.ltb_ge _ 8)), (proj2 (Nat.ltb_ge _ (length (enc_entry e)))) by lia.
  rewrite skipn_app_exact. destruct e. reflexivity.
Qed.

Lemma decode_wal_entries_step n kv rest : 0 <= fst kv < 2^56 /\ 0 <= snd kv < 2^56 ->
  decode_wal_entries (S n) (wal_entry kv ++ rest) = option_map (cons kv) (decode_wal_entries n rest).
Proof.
  destruct kv as [k v]. cbn [fst snd]. intros [Hk Hv].
  assert (Hl : length (wal_entry (k, v)) = 14%nat) by (unfold wal_entry; rewrite app_length, !le_encode_length; reflexivity).
  cbn [decode_wal_entries]. rewrite app_length, Hl, skipn_app, Hl, skipn_all2 by lia.
  unfold wal_entry. cbn [fst snd Nat.add Nat.ltb Nat.leb Nat.sub skipn app]. rewrite <- app_assoc.
  rewrite (get_le_0_app_dec (le_encode 7 k) _ 7), (get_le_skip_dec (le_encode 7 k) _ 7 7) by apply le_encode_length.
  rewrite (get_le_0_app_dec (le_encode 7 v) _ 7) by apply le_encode_length.
  rewrite !le_decode_encode by (change (256 ^ Z.of_nat 7) with (2^56); assumption). reflexivity.
Qed.

Lemma make_page_fields ps next (es : list (list Z)) :
  0 <= next < 2^64 -> Z.of_nat (length es) < 2^32 ->
  lp_next (make_page ps next es) = next /\
  lp_count (make_page ps next es) = Z.of_nat (length es) /\
  exists pad, lp_payload (make_page ps next es) = concat es ++ pad.
Proof.
  intros Hn Hc. unfold make_page, lp_next, lp_count, lp_payload.
  change (Z.to_nat off_list_next) with 0%nat. change (Z.to_nat off_list_count) with 8%nat.
  change (Z.to_nat listPageHeaderSize) with 12%nat. rewrite <- !app_assoc.
  rewrite (get_le_0_app_dec (le_encode 8 next) _ 8), (get_le_skip_dec (le_encode 8 next) _ 8 4),
    (get_le_0_app_dec (le_encode 4 _) _ 4) by apply le_encode_length.
  rewrite !le_decode_encode by (cbn; lia). repeat split. eexists.
  rewrite (app_assoc (le_encode 8 next)), skipn_app, skipn_all2, app_length, !le_encode_length
    by (rewrite app_length, !le_encode_length; lia).
  reflexivity.
Qed.

Lemma link_pages_ids ps : forall ids gs pages, link_pages ps ids gs = Some pages -> map fst pages = ids.
Proof.
  induction ids as [|id ids IH]; intros gs pages; cbn [link_pages].
  - destruct gs as [|[|] [|]]; intros [= <-]; reflexivity.
  - destruct gs as [|g gs']; (destruct (link_pages ps ids _) as [rest|] eqn:E; [|discriminate]);
      intros [= <-]; cbn [map fst]; f_equal; exact (IH _ _ E).
Qed.

Lemma write_list_ids ps ids es pages : write_list ps ids es = Some pages -> map fst pages = ids.
Proof. unfold write_list. destruct ids as [|i ids]; [intros [= <-]; reflexivity|]. apply link_pages_ids. Qed.

(* read_freelist and read_wal are this function, each at its own entry decoder: the two equations hold by conversion,
   the fixpoints have the same body *)
Definition read_chain {E} (decz : Z -> list Z -> option (list E)) : nat -> pdisk -> Z -> option (list Z * list E) :=
  fix chain fuel d pid :=
  if pid =? 0 then Some ([], [])
  else match fuel with
       | O => None
       | S f =>
           match d pid with
           | None => None
           | Some pg =>
               match decz (lp_count pg) (lp_payload pg) with
               | None => None
               | Some es =>
                   match chain f d (lp_next pg) with
                   | Some (ids, es') => Some (pid :: ids, es ++ es')
                   | None => None
                   end
               end
           end
       end.

Lemma read_freelist_is_chain : read_freelist = read_chain decode_entries_z.
Proof. reflexivity. Qed.

Lemma read_wal_is_chain : read_wal = read_chain decode_wal_entries_z.
Proof. reflexivity. Qed.

Section Chain.
  Context {E : Type} (enc : E -> list Z) (dec : nat -> list Z -> option (list E)) (ok : E -> Prop).
  Hypothesis dec_O : forall p, dec 0 p = Some [].
  Hypothesis dec_S : forall n e rest, ok e -> dec (S n) (enc e ++ rest) = option_map (cons e) (dec n rest).
  (* the readers take the count as the page header holds it, a Z, and guard it (decode_entries_z); that the guard
     changes nothing is count_guard_exact *)
  Context (decz : Z -> list Z -> option (list E)).
  Hypothesis decz_dec : forall cnt p, decz cnt p = dec (Z.to_nat cnt) p.
  Notation read_chain := (read_chain decz).

  Lemma dec_concat : forall es rest, Forall ok es -> dec (length es) (concat (map enc es) ++ rest) = Some es.
  Proof.
    induction es as [|e es IH]; intros rest Hok; [apply dec_O|]. apply Forall_cons_iff in Hok as [He Hes].
    cbn [length map concat]. rewrite <- app_assoc, dec_S, IH by assumption. reflexivity.
  Qed.

  Lemma read_chain_frame : forall fuel (d d' : pdisk) root ids es,
    read_chain fuel d root = Some (ids, es) -> (forall p, In p ids -> d' p = d p) ->
    read_chain fuel d' root = Some (ids, es).
  Proof.
    induction fuel as [|f IH]; intros d d' root ids es; cbn [read_chain];
      (destruct (root =? 0); [intros [= <- <-] _; reflexivity|]); [discriminate|].
    destruct (d root) as [pg|] eqn:Ed; [|discriminate].
    destruct (decz _ (lp_payload pg)) as [es0|] eqn:Ee; [|discriminate].
    destruct (read_chain f d (lp_next pg)) as [[ids1 es1]|] eqn:Er; [|discriminate].
    intros [= <- <-] Hag. rewrite (Hag root), Ed, Ee by (left; reflexivity).
    rewrite (IH d d' _ _ _ Er); [reflexivity|]. intros p Hp. apply Hag. right. exact Hp.
  Qed.

  Lemma read_made_page ps next (g : list E) d f id :
    id <> 0 -> d id = Some (make_page ps next (map enc g)) ->
    0 <= next < 2^64 -> Z.of_nat (length g) < 2^32 -> Forall ok g ->
    read_chain (S f) d id = option_map (fun r => (id :: fst r, g ++ snd r)) (read_chain f d next).
  Proof.
    intros Hid Hd Hn Hg Hok. cbn [read_chain]. rewrite (proj2 (Z.eqb_neq _ _) Hid), Hd.
    destruct (make_page_fields ps next (map enc g) Hn) as (-> & -> & pad & ->); [rewrite map_length; exact Hg|].
    rewrite decz_dec, map_length, Nat2Z.id, (dec_concat g pad Hok). destruct (read_chain f d next) as [[ids es]|]; reflexivity.
  Qed.

  (* a group that is missing stands for a page that stays empty *)
  Lemma link_pages_cons ps id ids (gs : list (list E)) :
    link_pages ps (id :: ids) (map (map enc) gs) =
    option_map (cons (id, make_page ps (hd 0 ids) (map enc (hd [] gs)))) (link_pages ps ids (map (map enc) (tl gs))).
  Proof. destruct gs; reflexivity. Qed.

  Lemma read_linked ps d : forall ids (gs : list (list E)) pages fuel,
    Forall (fun id => 0 < id < 2^64) ids -> Forall ok (concat gs) -> Z.of_nat (length (concat gs)) < 2^32 ->
    link_pages ps ids (map (map enc) gs) = Some pages ->
    (forall id pg, In (id, pg) pages -> d id = Some pg) ->
    (length ids <= fuel)%nat ->
    read_chain fuel d (hd 0 ids) = Some (ids, concat gs).
  Proof.
    induction ids as [|id ids IH]; intros gs pages fuel Hids Hok Hlen Hl Hd Hf.
    - replace (concat gs) with (@nil E); [destruct fuel; reflexivity|].
      destruct gs as [|[|e g] [|g2 gs]]; try discriminate Hl; reflexivity.
    - apply Forall_cons_iff in Hids as [Hid Hids]. destruct fuel as [|f]; [inversion Hf|].
      assert (Hnext : 0 <= hd 0 ids < 2^64)
        by (destruct Hids as [|? ? [? ?] _]; cbn [hd]; [split; [discriminate | reflexivity] | auto using Z.lt_le_incl]).
      rewrite link_pages_cons in Hl. destruct (link_pages ps ids _) as [rest|] eqn:Er; [|discriminate]. injection Hl as <-.
      replace (concat gs) with (hd [] gs ++ concat (tl gs)) in * by (destruct gs; reflexivity).
      assert (Hlens : Z.of_nat (length (hd [] gs)) < 2^32 /\ Z.of_nat (length (concat (tl gs))) < 2^32)
        by (clear - Hlen; rewrite app_length in Hlen; lia).
      apply Forall_app in Hok as [Hg Hgs]. cbn [hd].
      rewrite (read_made_page ps (hd 0 ids) (hd [] gs) d f id);
        [|intros ->; destruct Hid; discriminate|apply Hd; left; reflexivity|exact Hnext|apply Hlens|exact Hg].
      rewrite (IH (tl gs) rest f Hids Hgs); [reflexivity|apply Hlens|exact Er| |exact (le_S_n _ _ Hf)].
      intros i p Hin. apply Hd. right. exact Hin.
  Qed.

  Lemma fill_pages_groups : forall (es cur : list E) P used,
    exists gs, fill_pages P (map enc es) (map enc cur) used = map (map enc) gs /\ concat gs = rev cur ++ es.
  Proof.
    induction es as [|e es IH]; intros cur P used; cbn [map fill_pages].
    - exists [rev cur]. cbn [map concat]. rewrite map_rev, !app_nil_r. split; reflexivity.
    - destruct (P - used <? Z.of_nat (length (enc e))).
      + destruct (IH [e] P (Z.of_nat (length (enc e)))) as (gs & Hg & Hc). cbn [map] in Hg.
        exists (rev cur :: gs). cbn [map concat]. rewrite map_rev, Hg, Hc. cbn [rev app]. split; reflexivity.
      + destruct (IH (e :: cur) P (used + Z.of_nat (length (enc e)))) as (gs & Hg & Hc). cbn [map] in Hg.
        exists gs. rewrite Hg, Hc. cbn [rev]. rewrite <- app_assoc. split; reflexivity.
  Qed.

  (* with ids = [] nothing is written (newPagingWriter returns nil) and the root 0 reads as the empty chain: hence the
     first hypothesis *)
  Theorem write_read_chain ps ids (es : list E) pages d fuel :
    (ids = [] -> es = []) -> Forall (fun id => 0 < id < 2^64) ids -> Z.of_nat (length es) < 2^32 -> Forall ok es ->
    write_list ps ids (map enc es) = Some pages ->
    (forall id pg, In (id, pg) pages -> d id = Some pg) ->
    (length ids <= fuel)%nat ->
    read_chain fuel d (hd 0 ids) = Some (ids, es).
  Proof.
    intros Hnil Hids Hlen Hok Hw Hd Hf. unfold write_list in Hw. destruct ids as [|i0 ids0] eqn:Ei.
    - rewrite Hnil by reflexivity. destruct fuel; reflexivity.
    - rewrite <- Ei in *. destruct (fill_pages_groups es [] (ps - listPageHeaderSize) 0) as (gs & Hg & Hc).
      cbn [map rev app] in Hg, Hc. subst es. rewrite Hg in Hw. exact (read_linked ps d ids gs pages fuel Hids Hok Hlen Hw Hd Hf).
  Qed.
End Chain.
(* the codec is read off the proofs of its two equations and of the guard's *)
Arguments write_read_chain {E enc dec ok} dec_O dec_S {decz} decz_dec.

(* the guard on the entry count never changes the result: n entries need at least n bytes *)
Lemma count_guard_exact {A} (dec : nat -> list Z -> option A) cnt p :
  (forall a, dec (Z.to_nat cnt) p = Some a -> (Z.to_nat cnt <= length p)%nat) ->
  (if Z.of_nat (length p) <? cnt then None else dec (Z.to_nat cnt) p) = dec (Z.to_nat cnt) p.
Proof.
  intros Hlen. destruct (Z.of_nat (length p) <? cnt) eqn:E; [|reflexivity].
  destruct (dec (Z.to_nat cnt) p) as [a|]; [|reflexivity]. specialize (Hlen a eq_refl). lia.
Qed.

Lemma decode_region_size buf : let '(_, _, sz) := decode_region buf in sz = 8 \/ sz = 12.
Proof. unfold decode_region. destruct (_ =? 0); [left; reflexivity|]. destruct (_ =? entryOverflow); [right | left]; reflexivity. Qed.

Lemma decode_entries_len : forall n p es, decode_entries n p = Some es -> (n <= length p)%nat.
Proof.
  induction n as [|n IH]; intros p es; cbn [decode_entries]; [lia|].
  destruct (length p <? 8)%nat eqn:E8; [discriminate|].
  pose proof (decode_region_size p) as Hsz. destruct (decode_region p) as [[m r] sz].
  destruct (length p <? Z.to_nat sz)%nat; [discriminate|].
  destruct (decode_entries n (skipn (Z.to_nat sz) p)) as [es0|] eqn:Er; [|discriminate]. intros _.
  apply IH in Er. rewrite skipn_length in Er. lia.
Qed.

Lemma decode_wal_entries_len : forall n p es, decode_wal_entries n p = Some es -> (n <= length p)%nat.
Proof.
  induction n as [|n IH]; intros p es; cbn [decode_wal_entries]; [lia|].
  destruct (length p <? 14)%nat eqn:E14; [discriminate|].
  destruct (decode_wal_entries n (skipn 14 p)) as [es0|] eqn:Er; [|discriminate]. intros _.
  apply IH in Er. rewrite skipn_length in Er. lia.
Qed.

Lemma decode_entries_z_eq cnt p : decode_entries_z cnt p = decode_entries (Z.to_nat cnt) p.
Proof. exact (count_guard_exact decode_entries cnt p (decode_entries_len _ _)). Qed.

Lemma decode_wal_entries_z_eq cnt p : decode_wal_entries_z cnt p = decode_wal_entries (Z.to_nat cnt) p.
Proof. exact (count_guard_exact decode_wal_entries cnt p (decode_wal_entries_len _ _)). Qed.

(* D19: an entry count beyond the page is an error of both readers (never a read past the page) *)
Lemma count_beyond_page_is_error cnt p : Z.of_nat (length p) < cnt ->
  decode_entries_z cnt p = None /\ decode_wal_entries_z cnt p = None.
Proof. intros H. unfold decode_entries_z, decode_wal_entries_z. replace (Z.of_nat (length p) <? cnt) with true by lia. split; reflexivity. Qed.

Theorem freelist_chain_roundtrip ps ids metaList dataList pages d fuel :
  (ids = [] -> metaList = [] /\ dataList = []) -> Forall (fun id => 0 < id < 2^64) ids ->
  Forall valid_region metaList -> Forall valid_region dataList ->
  Z.of_nat (length metaList + length dataList) < 2^32 ->
  write_freelists ps ids metaList dataList = Some pages ->
  (forall id pg, In (id, pg) pages -> d id = Some pg) -> (length ids <= fuel)%nat ->
  read_freelist fuel d (hd 0 ids) = Some (ids, map (pair true) metaList ++ map (pair false) dataList).
Proof.
  intros Hnil Hids Hm Hd Hlen Hw. rewrite read_freelist_is_chain.
  unfold write_freelists in Hw. rewrite <- (map_map (pair true) enc_entry), <- (map_map (pair false) enc_entry), <- map_app in Hw.
  apply (write_read_chain (fun _ => eq_refl) decode_entries_step decode_entries_z_eq) with (ps := ps) (pages := pages); try assumption.
  - intros E. destruct (Hnil E) as [-> ->]. reflexivity.
  - rewrite app_length, !map_length. exact Hlen.
  - apply Forall_app. split; apply Forall_map; assumption.
Qed.

Theorem freelist_pages_roundtrip ps ids metaList dataList pages d fuel :
  ids <> [] -> Forall (fun id => 0 < id < 2^64) ids ->
  Forall valid_region metaList -> Forall valid_region dataList ->
  Z.of_nat (length metaList + length dataList) < 2^32 ->
  write_freelists ps ids metaList dataList = Some pages ->
  (forall id pg, In (id, pg) pages -> d id = Some pg) -> (length ids <= fuel)%nat ->
  read_freelist fuel d (hd 0 ids) = Some (ids, map (pair true) metaList ++ map (pair false) dataList).
Proof. intros Hne. apply freelist_chain_roundtrip. intros E. contradiction. Qed.

Theorem wal_chain_roundtrip ps ids mapping pages d fuel :
  (ids = [] -> mapping = []) -> Forall (fun id => 0 < id < 2^64) ids ->
  Forall (fun kv => 0 <= fst kv < 2^56 /\ 0 <= snd kv < 2^56) mapping ->
  Z.of_nat (length mapping) < 2^32 ->
  write_wal ps ids mapping = Some pages ->
  (forall id pg, In (id, pg) pages -> d id = Some pg) -> (length ids <= fuel)%nat ->
  read_wal fuel d (hd 0 ids) = Some (ids, mapping).
Proof.
  intros Hnil Hids Hm Hlen. rewrite read_wal_is_chain.
  apply (write_read_chain (fun _ => eq_refl) decode_wal_entries_step decode_wal_entries_z_eq); assumption.
Qed.

Theorem wal_pages_roundtrip ps ids mapping pages d fuel :
  ids <> [] -> Forall (fun id => 0 < id < 2^64) ids ->
  Forall (fun kv => 0 <= fst kv < 2^56 /\ 0 <= snd kv < 2^56) mapping ->
  Z.of_nat (length mapping) < 2^32 ->
  write_wal ps ids mapping = Some pages ->
  (forall id pg, In (id, pg) pages -> d id = Some pg) -> (length ids <= fuel)%nat ->
  read_wal fuel d (hd 0 ids) = Some (ids, mapping).
Proof. intros Hne. apply wal_chain_roundtrip. intros E. contradiction. Qed.
