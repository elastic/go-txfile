(* alloc.go, the meta area (metaManager, walAllocator, metaAllocator) without overflow area: transferToMeta and
   tryGrow as TakeEff steps whose pages move to the meta area, Ensure as two calls of tryGrow, the allocation of
   meta pages (MetaTaken); the invariant FullInv of every state a write transaction can reach (treach); and
   allocator.Rollback as an operation on sets of pages (rollback_sets), from which its exactness follows. *)
From VF Require Import Region Freelist Alloc RegionProofs AllocProofs TxAllocProofs.
From Coq Require Import Lia ZifyBool.

Definition same_but_meta (a a' : allocst) : Prop :=
  maxPages a' = maxPages a /\ pageSize a' = pageSize a /\ data a' = data a /\
  a_end (meta a') = a_end (meta a) /\ flRoot a' = flRoot a /\ flPages a' = flPages a.

Definition same_tx_but_moved (t t' : txst) : Prop :=
  tdata t' = tdata t /\ tmeta t' = tmeta t /\ st_ovf_alloc t' = st_ovf_alloc t /\ ovf t' = ovf t /\ pct t' = pct t.

Lemma transfer_all_spec : forall regs a t a' t',
  wff 2 (a_free (meta a)) -> wfl 2 regs ->
  (forall id, inl id regs -> ~ inl id (fregions (a_free (meta a)))) ->
  transfer_all a t regs = (a', t') ->
  wff 2 (a_free (meta a')) /\
  (forall id, inl id (fregions (a_free (meta a'))) <-> inl id (fregions (a_free (meta a))) \/ inl id regs) /\
  metaTotal a' = metaTotal a + count_pages regs /\
  moveToMeta t' = moveToMeta t ++ regs /\
  same_but_meta a a' /\ same_tx_but_moved t t'.
Proof.
  unfold transfer_all.
  induction regs as [|r regs IH]; intros a t a' t' Wm Wr Hdis; cbn [fold_left].
  - intros [= <- <-]. split; [exact Wm|]. split; [intros id; symmetry; apply inl_nil_r|].
    split; [rewrite count_pages_nil; lia|]. split; [symmetry; apply app_nil_r|]. split; repeat split.
  - pose proof (wfl_inv _ _ _ Wr) as (Hlo & Hc & Wtl).
    destruct (fl_add_region_spec (a_free (meta a)) r 2 Wm Hlo Hc) as (W1 & Hset1 & _).
    { intros id H. apply Hdis, inl_cons. left. exact H. }
    intros E. apply IH in E as (W2 & Hset2 & Htot & Hmv & Sa & St); cbn [transfer_to_meta meta set_meta a_free] in *.
    + split; [exact W2|]. split; [intros id; rewrite Hset2, Hset1, inl_cons; clear; tauto|].
      split; [rewrite Htot, count_pages_cons; cbn; lia|]. split; [rewrite Hmv; cbn; rewrite <- app_assoc; reflexivity|].
      unfold same_but_meta, same_tx_but_moved in *. cbn in Sa, St. split; [exact Sa|].
      destruct St as (A & B & C & D). repeat split; assumption || lia.
    + exact W1.
    + apply wfl_weaken with (rend r); [rlia | exact Wtl].
    + intros id H Hm. apply Hset1 in Hm as [Hm|Hm].
      * exact (wfl_head_not_in_tail _ _ _ _ Wr Hm H).
      * apply (Hdis id); [apply inl_cons; right; exact H | exact Hm].
Qed.

Lemma transfer_all_ends : forall regs a t a' t',
  transfer_all a t regs = (a', t') ->
  data a' = data a /\ a_end (meta a') = a_end (meta a) /\ maxPages a' = maxPages a.
Proof.
  unfold transfer_all. induction regs as [|r regs IH]; intros a t a' t'; cbn [fold_left].
  - intros [= <- <-]. repeat split.
  - intros E. destruct (IH _ _ _ _ E) as (A & B & C). cbn in A, B, C. repeat split; assumption.
Qed.

(* metaManager.tryGrow: the pages taken go to the meta area. A free meta page lies below the end of the data area
   or, when an overflow area exists, at or beyond the limit: never where the data area grows. *)
Lemma take_transfer a t a1 t1 ra rn a' t' :
  TakeEff a t a1 t1 ra rn [] -> wff 2 (a_free (meta a)) ->
  (forall id, inl id (Mset a) -> ~ inl id (Dset a) /\ (id < a_end (data a) \/ 0 < maxPages a <= id)) ->
  transfer_all a1 t1 (ra ++ rn) = (a', t') ->
  TakeEff a t a' t' ra rn (ra ++ rn).
Proof.
  intros E Wm Hmd Et.
  assert (Hm1: forall id, inl id (Mset a1) <-> inl id (Mset a)) by (intros id; rewrite (te_meta E); apply inl_nil_r).
  assert (Hdis: forall id, inl id (ra ++ rn) -> ~ inl id (Mset a1)).
  { intros id H Hm. apply Hm1, Hmd in Hm as [A B]. destruct (te_gone E H) as [_ Hlt]. pose proof (te_limit E) as L.
    apply inl_app in H as [H|H]; [apply (te_ra E) in H | apply (te_rn E) in H as [H|H]]; first [exact (A H) | unfold within_limit in L; lia]. }
  destruct (transfer_all_spec _ _ _ _ _ (te_mwf E Wm) (te_wf E) Hdis Et)
    as (W2 & Hset & Htot & Hmv & (B1 & B2 & B3 & B4 & B5 & B6) & (C1 & C2 & C3 & C4 & C5)).
  destruct E as [Ewf Era Ern Egone Esub Ecover [D1 D2 D3] Eend Emend Elimit Ealloc Enew _ _ Etot Emoved
                   (Y1 & Y2 & Y3 & Y4) (X1 & X2 & X3 & X4 & X5 & X6)].
  rewrite count_pages_nil, Z.add_0_r in Etot. rewrite app_nil_r in Emoved.
  constructor; rewrite ?B3, ?B4, ?C1; try assumption.
  - constructor; rewrite B3; assumption.
  - intros Hm. exact (within_limit_same _ _ _ (Elimit Hm) B3 B4 B1).
  - intros _. exact W2.
  - intros id. rewrite Hset, Hm1. reflexivity.
  - congruence.
  - congruence.
  - repeat split; congruence.
  - repeat split; congruence.
Qed.

Lemma try_grow_take a t count ok a' t' :
  DataInv a -> wff 2 (a_free (meta a)) ->
  (forall id, inl id (Mset a) -> ~ inl id (Dset a) /\ id < a_end (data a)) ->
  0 <= count < 2^32 ->
  try_grow a t count false = (ok, a', t') ->
  (a' = a /\ t' = t) \/ exists ra rn, TakeEff a t a' t' ra rn (ra ++ rn).
Proof.
  intros ID Wm Hmd Hc. unfold try_grow.
  assert (Hmd': forall id, inl id (Mset a) -> ~ inl id (Dset a) /\ (id < a_end (data a) \/ 0 < maxPages a <= id))
    by (intros id H; destruct (Hmd id H); auto).
  destruct (count =? 0) eqn:E0; [intros [= _ <- <-]; left; split; reflexivity|].
  destruct (data_avail a <? count) eqn:Eav; [intros [= _ <- <-]; left; split; reflexivity|].
  destruct (data_alloc_cont a t count) as [[[reg|] a1] t1] eqn:Ec;
    apply (data_alloc_cont_take a t count _ _ _ ID ltac:(lia)) in Ec.
  - change (transfer_to_meta a1 t1 reg) with (transfer_all a1 t1 ([] ++ [reg])).
    destruct (transfer_all a1 t1 _) as [a2 t2] eqn:Et. intros [= _ <- <-].
    right. exists [], [reg]. exact (take_transfer _ _ _ _ _ _ _ _ Ec Wm Hmd' Et).
  - destruct Ec as [-> ->].
    destruct (data_alloc_regions a t count) as [[[regs n] a1] t1] eqn:Ea.
    destruct (data_alloc_regions_take a t count _ _ _ _ ID ltac:(lia) Ea) as [(_ & -> & _ & -> & ->)|(_ & _ & ra & rn & -> & T & _)].
    + intros [= _ <- <-]. left. split; reflexivity.
    + destruct (transfer_all a1 t1 _) as [a2 t2] eqn:Et. intros [= _ <- <-].
      right. exists ra, rn. exact (take_transfer _ _ _ _ _ _ _ _ T Wm Hmd' Et).
Qed.

(* TakeEff _ _ _ _ ra rn (ra ++ rn) with [regs] for ra ++ rn and the id sets of the transaction given by inclusions
   only: the form in which try_grow_spec is stated *)
Record GrowEff (a : allocst) (t : txst) (a' : allocst) (t' : txst) (regs : regions) : Prop := {
  ge_wf : wfl 2 regs;
  ge_from : forall id, inl id regs -> inl id (fregions (a_free (data a))) \/ a_end (data a) <= id;
  ge_gone : forall id, inl id regs -> ~ inl id (fregions (a_free (data a'))) /\ id < a_end (data a');
  ge_sub : forall id, inl id (fregions (a_free (data a'))) -> inl id (fregions (a_free (data a)));
  ge_cover : forall id, inl id (fregions (a_free (data a))) -> inl id regs \/ inl id (fregions (a_free (data a')));
  ge_data : DataInv a';
  ge_end : a_end (data a) <= a_end (data a');
  ge_mend : a_end (meta a) <= a_end (meta a') /\ a_end (data a') <= Z.max (a_end (meta a)) (a_end (data a')) /\
            a_end (meta a') = Z.max (a_end (meta a)) (a_end (data a'));
  ge_meta_wf : wff 2 (a_free (meta a'));
  ge_meta : forall id, inl id (fregions (a_free (meta a'))) <-> inl id (fregions (a_free (meta a))) \/ inl id regs;
  ge_total : metaTotal a' = metaTotal a + count_pages regs;
  ge_moved : moveToMeta t' = moveToMeta t ++ regs;
  ge_alloc_in : forall id, In id (t_allocated (tdata t')) ->
                  In id (t_allocated (tdata t)) \/ (inl id regs /\ inl id (fregions (a_free (data a))));
  ge_alloc_keep : forall id, In id (t_allocated (tdata t)) -> In id (t_allocated (tdata t'));
  ge_alloc_sorted : sorted_from 2 (t_allocated (tdata t)) -> sorted_from 2 (t_allocated (tdata t'));
  ge_new_in : forall id, In id (t_new (tdata t')) -> In id (t_new (tdata t)) \/ inl id regs;
  ge_new_keep : forall id, In id (t_new (tdata t)) -> In id (t_new (tdata t'));
  ge_static : maxPages a' = maxPages a /\ pageSize a' = pageSize a /\ flRoot a' = flRoot a /\ flPages a' = flPages a;
  ge_tx : tmeta t' = tmeta t /\ st_ovf_alloc t' = st_ovf_alloc t /\ ovf t' = ovf t /\ pct t' = pct t /\
          t_end (tdata t') = t_end (tdata t) /\ t_freed (tdata t') = t_freed (tdata t) }.

Lemma grow_eff a t a' t' ra rn :
  TakeEff a t a' t' ra rn (ra ++ rn) -> wff 2 (a_free (meta a)) -> a_end (data a) <= a_end (meta a) ->
  GrowEff a t a' t' (ra ++ rn).
Proof.
  intros [Ewf Era Ern Egone Esub Ecover ED Eend Emend Elimit Ealloc Enew Emwf Emeta Etot Emoved Est Etx] Wm He.
  specialize (Emend He).
  constructor; try assumption; rewrite ?Ealloc, ?Enew; try setoid_rewrite add_regions_in; try setoid_rewrite inl_app.
  - intros id [H|H]; [left; apply Era; exact H | apply Ern; exact H].
  - lia.
  - auto.
  - intros id [H|H]; [right; auto | left; exact H].
  - auto.
  - apply add_regions_sorted. intros id H. apply (wfl_lower _ _ _ Ewf), inl_app. left. exact H.
  - intros id [H|H]; [right; right; exact H | left; exact H].
  - auto.
Qed.

(* metaManager.tryGrow without overflow area, with inclusions where try_grow_take has equations *)
Theorem try_grow_spec a t count ok a' t' :
  DataInv a -> wff 2 (a_free (meta a)) ->
  (forall id, inl id (fregions (a_free (meta a))) -> ~ inl id (fregions (a_free (data a))) /\ id < a_end (data a)) ->
  a_end (data a) <= a_end (meta a) ->
  0 <= count < 2^32 ->
  try_grow a t count false = (ok, a', t') ->
  (a' = a /\ t' = t) \/ exists regs, GrowEff a t a' t' regs.
Proof.
  intros ID Wm Hmd Hends Hc E.
  destruct (try_grow_take _ _ _ _ _ _ ID Wm Hmd Hc E) as [H|(ra & rn & T)]; [left; exact H | right].
  exists (ra ++ rn). exact (grow_eff _ _ _ _ _ _ T Wm Hends).
Qed.

(* The invariant of a whole write transaction (data and meta operations, no overflow area). Inv0: the committed
   allocator state the transaction starts from *)
Record Inv0 (a0 : allocst) : Prop := {
  i0_data : DataInv a0;
  i0_mwf : wff 2 (a_free (meta a0));
  i0_ends : a_end (data a0) <= a_end (meta a0);
  i0_mbelow : forall id, inl id (Mset a0) -> ~ inl id (Dset a0) /\ id < a_end (data a0) }.

Record FullInv (a0 a : allocst) (t : txst) : Prop := {
  fi_data : DataInv a;
  fi_dend : t_end (tdata t) = a_end (data a0);
  fi_mend : t_end (tmeta t) = a_end (meta a0);
  fi_ends : a_end (data a0) <= a_end (data a) /\ a_end (data a) <= a_end (meta a);
  fi_dsorted : sorted_from 2 (t_allocated (tdata t));
  fi_msorted : sorted_from 2 (t_allocated (tmeta t));
  fi_mwf : wff 2 (a_free (meta a));
  fi_mbelow : forall id, inl id (Mset a) -> ~ inl id (Dset a) /\ id < a_end (data a);
  fi_mv : forall id, inl id (moveToMeta t) ->
            ~ inl id (Dset a) /\ 2 <= id < a_end (data a) /\ (inl id (Dset a0) \/ a_end (data a0) <= id);
  fi_ddis : forall id, In id (t_allocated (tdata t)) -> id < a_end (data a0) -> ~ inl id (Dset a);
  fi_dset : forall id, id < a_end (data a0) ->
            (inl id (Dset a0) <-> inl id (Dset a) \/ In id (t_allocated (tdata t)) \/ inl id (moveToMeta t));
  fi_new : forall id, In id (t_new (tdata t)) -> a_end (data a0) <= id \/ inl id (moveToMeta t);
  fi_mdis : forall id, In id (t_allocated (tmeta t)) -> ~ inl id (Mset a);
  fi_mset : forall id, (inl id (Mset a) \/ In id (t_allocated (tmeta t))) <-> (inl id (Mset a0) \/ inl id (moveToMeta t));
  fi_total : metaTotal a = metaTotal a0 + count_pages (moveToMeta t);
  fi_ovf : st_ovf_alloc t = 0 /\ ovf t = false;
  fi_static : maxPages a = maxPages a0 /\ pageSize a = pageSize a0 /\ flRoot a = flRoot a0 /\ flPages a = flPages a0 }.

Lemma full_inv_init a0 p : Inv0 a0 -> FullInv a0 a0 (make_tx a0 false p).
Proof.
  intros [ID MW ME MB]. constructor; cbn.
  - exact ID.
  - reflexivity.
  - reflexivity.
  - lia.
  - constructor.
  - constructor.
  - exact MW.
  - exact MB.
  - intros id H. destruct (inl_nil _ H).
  - intros id [].
  - intros id _. split; [left; assumption | intros [H|[[]|H]]; [exact H | destruct (inl_nil _ H)]].
  - intros id [].
  - intros id [].
  - intros id. split; [intros [H|[]]; left; exact H | intros [H|H]; [left; exact H | destruct (inl_nil _ H)]].
  - change (count_pages []) with 0. lia.
  - split; reflexivity.
  - repeat split.
Qed.

(* Tx.Alloc / AllocN and every growth of the meta area keep the invariant *)
Lemma full_take a0 a t a' t' ra rn mv :
  Inv0 a0 -> FullInv a0 a t -> TakeEff a t a' t' ra rn mv ->
  (forall id, inl id mv -> inl id (ra ++ rn)) ->
  (forall id, inl id rn -> a_end (data a) <= id \/ inl id mv) ->
  FullInv a0 a' t'.
Proof.
  intros I0 F E Hmv Hrn.
  destruct (te_tx E) as (X1 & X2 & X3 & _ & X5 & _). destruct (te_static E) as (Y1 & Y2 & Y3 & Y4).
  pose proof (fi_ends _ _ _ F) as [Fe1 Fe2]. pose proof (te_end E) as Eend.
  assert (Hmv': forall id, inl id (moveToMeta t') <-> inl id (moveToMeta t) \/ inl id mv).
  { intros id. rewrite (te_moved E). apply inl_app. }
  (* where the pages taken lie, also with respect to the committed state *)
  assert (Hfrom: forall id, inl id (ra ++ rn) ->
            (inl id (Dset a) \/ a_end (data a) <= id) /\ (inl id (Dset a0) \/ a_end (data a0) <= id)).
  { intros id H. assert (Hf: inl id (Dset a) \/ a_end (data a) <= id).
    { apply inl_app in H as [H|H]; [left; exact (te_ra E H) | exact (te_rn E H)]. }
    split; [exact Hf|]. destruct (Z.lt_ge_cases id (a_end (data a0))) as [Hlt|Hge]; [left | right; exact Hge].
    apply (fi_dset _ _ _ F id Hlt). left. destruct Hf; [assumption | lia]. }
  constructor; rewrite ?X1, ?X2, ?X3, ?X5, ?Y1, ?Y2, ?Y3, ?Y4, ?(te_alloc E), ?(te_new E); try apply F.
  - exact (te_data E).
  - rewrite (te_mend E Fe2). lia.
  - apply add_regions_sorted; [|exact (fi_dsorted _ _ _ F)].
    intros id H. apply (wfl_lower _ _ _ (te_wf E)), inl_app. left. exact H.
  - exact (te_mwf E (fi_mwf _ _ _ F)).
  - intros id H. apply (te_meta E) in H as [H|H]; [|exact (te_gone E (Hmv _ H))].
    destruct (fi_mbelow _ _ _ F _ H) as [A B]. split; [intros Hd; exact (A (te_sub E Hd)) | lia].
  - intros id H. apply Hmv' in H as [H|H].
    + destruct (fi_mv _ _ _ F _ H) as (A & B & C). split; [intros Hd; exact (A (te_sub E Hd))|]. split; [lia | exact C].
    + apply Hmv in H. destruct (te_gone E H) as [A B]. pose proof (wfl_lower _ _ _ (te_wf E) H).
      split; [exact A|]. split; [lia | apply Hfrom; exact H].
  - intros id H Hlt Hd. apply add_regions_in in H as [H|H].
    + apply (te_gone E (id:=id)); [apply inl_app; left; exact H | exact Hd].
    + exact (fi_ddis _ _ _ F id H Hlt (te_sub E Hd)).
  - intros id Hlt. rewrite (fi_dset _ _ _ F id Hlt), add_regions_in, Hmv'. split.
    + intros [H|[H|H]]; [|auto|auto].
      destruct (te_cover E H) as [Hc|Hc]; [|auto]. apply inl_app in Hc as [Hc|Hc]; [auto|].
      destruct (Hrn _ Hc); [lia | auto].
    + intros [H|[[H|H]|[H|H]]]; [left; exact (te_sub E H) | left; exact (te_ra E H) | auto | auto |].
      destruct (proj1 (Hfrom _ (Hmv _ H))); [auto | lia].
  - intros id H. rewrite Hmv'. apply add_regions_in in H as [H|H].
    + destruct (Hrn _ H); [left; lia | auto].
    + destruct (fi_new _ _ _ F _ H); auto.
  - intros id H Hm. apply (te_meta E) in Hm as [Hm|Hm]; [exact (fi_mdis _ _ _ F id H Hm)|].
    (* a page allocated from the meta free list is not among the pages moved in this step *)
    apply Hmv, Hfrom in Hm as [Hm Hm0].
    destruct (proj1 (fi_mset _ _ _ F id) (or_intror H)) as [H0|H0].
    + destruct (i0_mbelow _ I0 _ H0) as [A B]. destruct Hm0 as [C|C]; [exact (A C) | lia].
    + destruct (fi_mv _ _ _ F _ H0) as (A & B & _). destruct Hm as [C|C]; [exact (A C) | lia].
  - intros id. rewrite (te_meta E), Hmv', <- or_assoc, <- (fi_mset _ _ _ F id). clear. tauto.
  - rewrite (te_total E), (fi_total _ _ _ F), (te_moved E), count_pages_app. lia.
Qed.

Lemma full_grow a0 a t a' t' ra rn :
  Inv0 a0 -> FullInv a0 a t -> TakeEff a t a' t' ra rn (ra ++ rn) -> FullInv a0 a' t'.
Proof.
  intros I0 F T. apply (full_take a0 a t a' t' ra rn _ I0 F T); [auto|]. intros id H. right. apply inl_app. right. exact H.
Qed.

Lemma full_alloc_step a0 a t n regs cnt a' t' :
  Inv0 a0 -> FullInv a0 a t -> 0 < n < 2^32 ->
  data_alloc_regions a t n = (regs, cnt, a', t') -> FullInv a0 a' t'.
Proof.
  intros I0 F Hn E.
  destruct (data_alloc_regions_take a t n regs cnt a' t' (fi_data _ _ _ F) ltac:(lia) E) as [(_ & _ & _ & -> & ->)|(_ & _ & ra & rn & _ & T & Hrn & _)]; [exact F|].
  apply (full_take a0 a t a' t' ra rn [] I0 F T); [intros id H; destruct (inl_nil _ H) | auto].
Qed.

Lemma next_pow2_from_bound : forall fuel p u, 0 < p -> next_pow2_from fuel p u <= Z.max p (2 * u).
Proof.
  induction fuel as [|f IH]; intros p u Hp; cbn [next_pow2_from]; [lia|].
  destruct (u <? p) eqn:E; [lia|]. specialize (IH (2 * p) u ltac:(lia)). lia.
Qed.

(* 2^28 is no bound of the source: it keeps the page counts that Ensure passes to tryGrow below the 2^32 that
   try_grow_take asks for *)
Lemma quota_bound total used s g mn mx :
  0 <= total < 2^28 -> 0 <= used < 2^29 -> quota total used s g = (mn, mx) ->
  mn = Z.max used total /\ mx <= 2^31.
Proof.
  intros Ht Hu E. apply pair_equal_spec in E as [<- <-]. split; [reflexivity|].
  pose proof (next_pow2_from_bound 70 1 used ltac:(lia)) as Hb. fold (next_pow2 used) in Hb.
  destruct (_ || _); lia.
Qed.

Lemma quota_min total used s g : total <= fst (quota total used s g).
Proof. unfold quota. cbn [fst]. lia. Qed.

(* Ensure is two calls of tryGrow (a call for 0 pages does nothing) *)
Lemma ensure_grows a t n ok a' t' :
  ovf t = false -> 0 <= avail (a_free (meta a)) -> 0 <= n < 2^28 -> metaTotal a < 2^28 ->
  ensure a t n = Some (ok, a', t') ->
  exists c1 b1 a1 t1 c2 b2, 0 <= c1 < 2^32 /\ 0 <= c2 < 2^32 /\
    try_grow a t c1 false = (b1, a1, t1) /\ try_grow a1 t1 c2 false = (b2, a', t').
Proof.
  intros Hovf Hav Hn Htot. unfold ensure. rewrite Hovf.
  destruct (metaTotal a <? avail (a_free (meta a))) eqn:E0; [discriminate|].
  set (total := metaTotal a) in *. set (used := total - avail (a_free (meta a)) + n).
  destruct (quota total used (pct t / 2) (pct t)) as [szMin szMax] eqn:Eq.
  destruct (quota_bound total used _ _ _ _ ltac:(lia) ltac:(unfold used; lia) Eq) as [Hmin Hmax].
  destruct (szMax <? szMin) eqn:E1; [discriminate|].
  destruct (szMax =? total) eqn:E2; [intros [= _ <- <-]; exists 0, true, a, t, 0, true; repeat split; lia || reflexivity|].
  destruct (szMax <? total) eqn:E3; [discriminate|].
  destruct (try_grow a t (szMax - total) false) as [[[] a1] t1] eqn:Eg.
  - intros [= _ <- <-]. exists (szMax - total), true, a1, t1, 0, true. repeat split; lia || auto.
  - intros E. exists (szMax - total), false, a1, t1, (szMin - total), ok. repeat split; try lia; congruence.
Qed.

(* so a property of the states of a transaction that implies FullInv and that every growth of the meta area keeps is
   kept by Ensure *)
Lemma ensure_chain a0 (P : allocst -> txst -> Prop) :
  (forall a t, P a t -> FullInv a0 a t) ->
  (forall a t a' t' ra rn, P a t -> TakeEff a t a' t' ra rn (ra ++ rn) -> P a' t') ->
  forall a t n ok a' t', P a t -> 0 <= n < 2^28 -> metaTotal a < 2^28 ->
  ensure a t n = Some (ok, a', t') -> P a' t'.
Proof.
  intros Hfull Hgrow.
  assert (Hstep: forall a t c b a' t', P a t -> 0 <= c < 2^32 -> try_grow a t c false = (b, a', t') -> P a' t').
  { intros a t c b a' t' H Hc E. pose proof (Hfull _ _ H) as F.
    destruct (try_grow_take _ _ _ _ _ _ (fi_data _ _ _ F) (fi_mwf _ _ _ F) (fi_mbelow _ _ _ F) Hc E) as [[-> ->]|(ra & rn & T)];
      [exact H | exact (Hgrow _ _ _ _ _ _ H T)]. }
  intros a t n ok a' t' H Hn Htot E. pose proof (Hfull _ _ H) as F.
  destruct (ensure_grows a t n _ _ _ (proj2 (fi_ovf _ _ _ F)) (wff_avail_nonneg _ _ (fi_mwf _ _ _ F)) Hn Htot E)
    as (c1 & b1 & a1 & t1 & c2 & b2 & H1 & H2 & E1 & E2).
  exact (Hstep _ _ _ _ _ _ (Hstep _ _ _ _ _ _ H H1 E1) H2 E2).
Qed.

Theorem ensure_preserves a0 a t n ok a' t' :
  Inv0 a0 -> FullInv a0 a t -> 0 <= n < 2^28 -> metaTotal a < 2^28 ->
  ensure a t n = Some (ok, a', t') -> FullInv a0 a' t'.
Proof.
  intros I0. apply (ensure_chain a0 (FullInv a0)); [auto|]. intros b u b' u' ra rn. apply (full_grow a0 _ _ _ _ _ _ I0).
Qed.

(* Tx.Free of a data page in use (not free, not a page of the meta area) *)
Lemma full_free_step a0 a t id a' t' :
  FullInv a0 a t ->
  ~ inl id (Dset a) -> ~ inl id (Mset a) -> ~ inl id (moveToMeta t) ->
  data_free a t id = Some (a', t') -> FullInv a0 a' t'.
Proof.
  intros F Hnf Hnm Hnv E.
  destruct (set_mem id (t_new (tdata t))) eqn:Enew.
  - pose proof (fi_ends _ _ _ F) as [Fe1 Fe2].
    assert (Hidnew: a_end (data a0) <= id).
    { destruct (fi_new _ _ _ F id) as [A|A]; [apply set_mem_in; exact Enew | exact A | contradiction]. }
    destruct (data_free_fresh_eff a t id a' t' (fi_data _ _ _ F) Enew Hnf E)
      as (-> & (S1 & S2 & S3 & S4 & S5 & S6) & Hmend & W' & He' & Hmin & Hcut & Hused). clear E Enew.
    rewrite (fi_dend _ _ _ F), Z.min_r in Hmin by exact Fe1.
    assert (Hin: forall x, x < a_end (data a0) -> (inl x (Dset a') <-> inl x (Dset a))).
    { intros x Hx. rewrite Hcut. split; [intros [[->|H] _]; [lia | exact H] | intros H; split; [right; exact H | lia]]. }
    constructor; rewrite ?S1, ?S2, ?S3, ?S4, ?S5, ?S6; try apply F.
    + constructor; [exact W' | intros x Hx; apply Hcut, Hx | lia].
    + split; [lia|]. rewrite Hmend. destruct (_ =? _) eqn:Em; lia.
    + intros x H. destruct (fi_mbelow _ _ _ F _ H) as [A B]. apply Hused; [exact B | intros ->; contradiction | exact A].
    + intros x H. destruct (fi_mv _ _ _ F _ H) as (A & B & C).
      destruct (Hused x) as [A' B']; [lia | intros ->; contradiction | exact A|]. split; [exact A'|]. split; [lia | exact C].
    + intros x Hal Hlt Hf. apply (Hin x Hlt) in Hf. exact (fi_ddis _ _ _ F x Hal Hlt Hf).
    + intros x Hlt. rewrite (fi_dset _ _ _ F x Hlt), (Hin x Hlt). reflexivity.
    + destruct (fi_ovf _ _ _ F) as [Fo1 Fo2]. split; [cbn; lia | exact Fo2].
  - destruct (data_free_committed_eq a t id a' t' Enew E) as (_ & -> & ->).
    destruct F as [? ? ? ? ? ? ? ? ? ? ? ? ? ? ? [Fo1 Fo2] ?]. constructor; try assumption.
    split; [cbn; lia | exact Fo2].
Qed.

(* taking pages out of the meta free list (overwrite pages, free-list pages): [regs] leave the list and are
   recorded as allocated *)
Definition MetaTaken (a : allocst) (t : txst) (a' : allocst) (t' : txst) (regs : regions) : Prop :=
  exists f', wff 2 f' /\ wfl 2 regs /\
    (forall id, inl id (Mset a) <-> inl id regs \/ inl id (fregions f')) /\
    (forall id, inl id regs -> ~ inl id (fregions f')) /\
    a' = set_meta a {| a_end := a_end (meta a); a_free := f' |} (metaTotal a) /\
    t' = tx_stats (tx_with t (moveToMeta t) (tdata t) (ta_allocated (tmeta t) (regions_ids regs))) 0 0 1 0 0 0 0.

(* walAllocator.Alloc: Ensure, then one page *)
Lemma wal_alloc_eff a t id a' t' :
  wal_alloc a t = Some (id, a', t') ->
  exists ok a1 t1, ensure a t 1 = Some (ok, a1, t1) /\
    (wff 2 (a_free (meta a1)) -> (id = 0 /\ a' = a1 /\ t' = t1) \/ MetaTaken a1 t1 a' t' [single id]).
Proof.
  unfold wal_alloc. destruct (ensure a t 1) as [[[ok a1] t1]|]; [|discriminate].
  intros E. exists ok, a1, t1. split; [reflexivity|]. intros Wm. revert E.
  destruct ok; [|intros [= <- <- <-]; left; repeat split].
  destruct (fl_alloc_cont false (a_free (meta a1)) 1) as [[[i c]|] f'] eqn:Ec; [|intros [= <- <- <-]; left; repeat split].
  destruct (fl_alloc_cont_spec 2 _ 1 _ _ Wm ltac:(lia) Ec) as (Hc & Hlo & _ & Wf' & _ & Hset & Hdis).
  cbn [rid rcount] in *. subst c. intros [= <- <- <-]. right. exists f'. fold (single i) in *.
  split; [exact Wf'|]. split; [constructor; [exact Hlo | cbn; lia | constructor]|].
  split; [intros x; rewrite inl_single; apply Hset|]. split; [intros x Hx; apply Hdis, inl_single, Hx|].
  split; reflexivity.
Qed.

(* metaAllocator.AllocRegions: Ensure, then pages from the end of the list *)
Lemma meta_alloc_regions_eff a t n regs a' t' :
  0 <= n -> meta_alloc_regions a t n = Some (regs, a', t') ->
  exists ok a1 t1, ensure a t n = Some (ok, a1, t1) /\
    (wff 2 (a_free (meta a1)) ->
     (regs = [] /\ a' = a1 /\ t' = t1) \/ exists rs, MetaTaken a1 t1 a' t' rs /\ forall id, inl id regs -> inl id rs).
Proof.
  intros Hn. unfold meta_alloc_regions. destruct (ensure a t n) as [[[ok a1] t1]|]; [|discriminate].
  intros E. exists ok, a1, t1. split; [reflexivity|]. intros Wm. revert E.
  destruct ok; [|intros [= <- <- <-]; left; repeat split].
  unfold alloc_from_freelist. set (cnt := Z.min n (avail (a_free (meta a1)))).
  destruct (fl_alloc_regions true (a_free (meta a1)) cnt) as [rs f'] eqn:Ea.
  pose proof (wff_avail_nonneg _ _ Wm) as Hav.
  destruct (fl_alloc_regions_spec true 2 _ cnt rs f' Wm ltac:(unfold cnt; lia) Ea) as (Wf' & Wr & _ & _ & Hset & Hdis).
  intros [= <- <- <-]. right. exists rs. split.
  { exists f'. split; [exact Wf'|]. split; [exact Wr|]. split; [exact Hset|]. split; [exact Hdis|]. split; reflexivity. }
  intros id H. destruct (cnt =? 0); [destruct (inl_nil _ H) | exact H].
Qed.

Lemma full_meta_take a0 a t a' t' regs :
  FullInv a0 a t -> MetaTaken a t a' t' regs ->
  FullInv a0 a' t' /\
  (forall id, inl id regs -> In id (t_allocated (tmeta t')) /\ ~ inl id (Mset a') /\ ~ inl id (Dset a')).
Proof.
  intros F (f' & Wf' & Wr & Hset & Hdis & -> & ->).
  destruct F as [FD Fde Fme [Fe1 Fe2] Fds Fms Fmw Fmb Fmv Fdd Fdset Fnew Fmd Fmset Ftot [Fo1 Fo2] Fst].
  cbn [data meta a_end a_free metaTotal maxPages pageSize flRoot flPages set_meta
       tdata tmeta moveToMeta st_ovf_alloc ovf tx_stats tx_with ta_allocated t_end t_allocated t_new].
  split.
  - constructor; cbn [data meta a_end a_free metaTotal maxPages pageSize flRoot flPages set_meta
                      tdata tmeta moveToMeta st_ovf_alloc ovf tx_stats tx_with ta_allocated t_end t_allocated t_new];
      try setoid_rewrite add_regions_in; try assumption.
    + destruct FD as [X1 X2 X3]. constructor; assumption.
    + split; assumption.
    + apply add_regions_sorted; [exact (fun id => wfl_lower _ _ id Wr) | exact Fms].
    + intros id H. apply Fmb, Hset. right. exact H.
    + intros id [H|H] Hm; [exact (Hdis id H Hm) | apply (Fmd id H), Hset; right; exact Hm].
    + intros id. rewrite <- Fmset, Hset. clear. tauto.
    + split; [lia | exact Fo2].
  - intros id H. split; [apply add_regions_in; left; exact H|]. split; [exact (Hdis id H)|].
    apply Fmb, Hset. left. exact H.
Qed.

(* walAllocator.Alloc: one overwrite page *)
Theorem full_wal_alloc_step a0 a t id a' t' :
  Inv0 a0 -> FullInv a0 a t -> metaTotal a < 2^28 ->
  wal_alloc a t = Some (id, a', t') ->
  FullInv a0 a' t' /\
  (id <> 0 -> In id (t_allocated (tmeta t')) /\ ~ inl id (Mset a') /\ ~ inl id (Dset a')).
Proof.
  intros I0 F Htot E. destruct (wal_alloc_eff _ _ _ _ _ E) as (ok & a1 & t1 & Ee & H).
  assert (F1: FullInv a0 a1 t1) by (apply (ensure_preserves a0 a t 1 ok); auto; lia).
  destruct (H (fi_mwf _ _ _ F1)) as [(-> & -> & ->)|T]; [split; [exact F1 | intros []; reflexivity]|].
  destruct (full_meta_take _ _ _ _ _ _ F1 T) as [F2 Hout]. split; [exact F2|].
  intros _. apply Hout, inl_single. unfold inr, rend. cbn. lia.
Qed.

(* metaAllocator.AllocRegions: pages for the free list and the overwrite mapping *)
Theorem full_meta_alloc_step a0 a t n regs a' t' :
  Inv0 a0 -> FullInv a0 a t -> 0 <= n < 2^28 -> metaTotal a < 2^28 ->
  meta_alloc_regions a t n = Some (regs, a', t') ->
  FullInv a0 a' t' /\
  (forall id, inl id regs -> In id (t_allocated (tmeta t')) /\ ~ inl id (Mset a') /\ ~ inl id (Dset a')).
Proof.
  intros I0 F Hn Htot E. destruct (meta_alloc_regions_eff _ _ _ _ _ _ (proj1 Hn) E) as (ok & a1 & t1 & Ee & H).
  assert (F1: FullInv a0 a1 t1) by (apply (ensure_preserves a0 a t n ok); assumption).
  destruct (H (fi_mwf _ _ _ F1)) as [(-> & -> & ->)|(rs & T & Hrs)];
    [split; [exact F1 | intros id Hid; destruct (inl_nil _ Hid)]|].
  destruct (full_meta_take _ _ _ _ _ _ F1 T) as [F2 Hout]. split; [exact F2 | auto].
Qed.

(* metaManager.Free: only recorded *)
Lemma full_meta_free_step a0 a t id : FullInv a0 a t -> FullInv a0 a (meta_free t id).
Proof.
  intros F. destruct F as [FD Fde Fme [Fe1 Fe2] Fds Fms Fmw Fmb Fmv Fdd Fdset Fnew Fmd Fmset Ftot [Fo1 Fo2] Fst].
  unfold meta_free.
  constructor; cbn [tdata tmeta moveToMeta st_ovf_alloc ovf tx_stats tx_with ta_freed t_end t_allocated t_new];
    auto; try lia; split; assumption.
Qed.

(* every state a write transaction (without overflow area) can reach *)
Inductive treach (a0 : allocst) (p : Z) : allocst -> txst -> Prop :=
| tr_init : treach a0 p a0 (make_tx a0 false p)
| tr_alloc a t n regs cnt a' t' :
    treach a0 p a t -> 0 < n < 2^32 -> data_alloc_regions a t n = (regs, cnt, a', t') -> treach a0 p a' t'
| tr_free a t id a' t' :
    treach a0 p a t -> ~ inl id (Dset a) -> ~ inl id (Mset a) -> ~ inl id (moveToMeta t) ->
    data_free a t id = Some (a', t') -> treach a0 p a' t'
| tr_wal a t id a' t' :
    treach a0 p a t -> metaTotal a < 2^28 -> wal_alloc a t = Some (id, a', t') -> treach a0 p a' t'
| tr_meta a t n regs a' t' :
    treach a0 p a t -> 0 <= n < 2^28 -> metaTotal a < 2^28 ->
    meta_alloc_regions a t n = Some (regs, a', t') -> treach a0 p a' t'
| tr_mfree a t id : treach a0 p a t -> treach a0 p a (meta_free t id).

Theorem treach_inv a0 p a t : Inv0 a0 -> treach a0 p a t -> FullInv a0 a t.
Proof.
  intros I0 R. induction R.
  - apply full_inv_init. exact I0.
  - eapply full_alloc_step; eauto.
  - eapply full_free_step; eauto.
  - eapply full_wal_alloc_step; eauto.
  - eapply full_meta_alloc_step; eauto.
  - apply full_meta_free_step. assumption.
Qed.

(* the function that allocator.Rollback folds over moveToMeta *)
Definition rb_step (e : Z) : freelist * Z * list Z -> region -> freelist * Z * list Z :=
  fun '(mf, mt, dalloc) reg =>
    (fl_remove_region mf reg, mt - rcount reg,
     if rid reg <? e then set_add_all (region_ids reg) dalloc else dalloc).

(* the moved regions leave the meta free list and the meta page count; those that start below the old end [e] of
   the data area join the pages to be given back to the data free list *)
Lemma rollback_fold e : forall mv mf mt dalloc mf' mt' dalloc',
  wff 2 mf ->
  fold_left (rb_step e) mv (mf, mt, dalloc) = (mf', mt', dalloc') ->
  wff 2 mf' /\
  (forall id, inl id (fregions mf') <-> inl id (fregions mf) /\ ~ inl id mv) /\
  mt' = mt - count_pages mv /\
  (forall x, x < e -> (In x dalloc' <-> In x dalloc \/ inl x mv)) /\
  (sorted_from 2 dalloc -> (forall x, inl x mv -> 2 <= x) -> sorted_from 2 dalloc').
Proof.
  induction mv as [|r mv IH]; intros mf mt dalloc mf' mt' dalloc' W; cbn [fold_left].
  - intros [= <- <- <-]. split_all; [exact W | | rewrite count_pages_nil; lia | | auto]; intros x; pose proof (inl_nil x); tauto.
  - unfold rb_step at 2. intros E.
    destruct (fl_remove_region_spec mf r 2 W) as (W1 & Hs1).
    destruct (IH _ _ _ mf' mt' dalloc' W1 E) as (W2 & Hs2 & Hmt & Hd & Hsorted).
    split_all.
    + exact W2.
    + intros id. rewrite Hs2, Hs1, inl_cons. tauto.
    + rewrite Hmt, count_pages_cons. lia.
    + intros x Hx. rewrite (Hd x Hx), inl_cons. destruct (rid r <? e) eqn:Er.
      * rewrite set_add_all_in, region_ids_in. tauto.
      * assert (~ inr x r) by rlia. tauto.
    + intros Hsd Hge. apply Hsorted.
      * destruct (rid r <? e); [|exact Hsd]. apply set_add_all_sorted; [exact Hsd|].
        intros x Hx. apply Hge, inl_cons. left. apply region_ids_in, Hx.
      * intros x Hx. apply Hge, inl_cons. right. exact Hx.
Qed.

(* Rollback as an operation on sets of pages: the meta area keeps what lies below its old end marker and was free
   or allocated from its free list, without the pages moved to it; the data area gets back, below its old end
   marker, what was allocated from its free list or moved away. *)
Lemma rollback_sets a t :
  DataInv a -> wff 2 (a_free (meta a)) -> below (a_free (meta a)) (a_end (meta a)) ->
  sorted_from 2 (t_allocated (tmeta t)) -> sorted_from 2 (t_allocated (tdata t)) ->
  (forall id, inl id (moveToMeta t) -> 2 <= id /\ ~ inl id (Dset a)) ->
  2 <= t_end (tmeta t) -> a_end (meta a) - t_end (tmeta t) < 2^32 ->
  2 <= t_end (tdata t) -> a_end (data a) - t_end (tdata t) < 2^32 ->
  (forall id, In id (t_allocated (tmeta t)) -> id < t_end (tmeta t) -> ~ inl id (Mset a)) ->
  (forall id, In id (t_allocated (tdata t)) -> id < t_end (tdata t) -> ~ inl id (Dset a)) ->
  let r := rollback a t in
  maxPages r = maxPages a /\ pageSize r = pageSize a /\ flRoot r = flRoot a /\ flPages r = flPages a /\
  metaTotal r = metaTotal a - st_ovf_alloc t - count_pages (moveToMeta t) /\
  a_end (meta r) = t_end (tmeta t) /\ wff 2 (a_free (meta r)) /\
  (forall id, inl id (Mset r) <->
     (id < t_end (tmeta t) /\ (inl id (Mset a) \/ In id (t_allocated (tmeta t)))) /\ ~ inl id (moveToMeta t)) /\
  a_end (data r) = t_end (tdata t) /\ wff 2 (a_free (data r)) /\
  (forall id, inl id (Dset r) <->
     id < t_end (tdata t) /\ (inl id (Dset a) \/ In id (t_allocated (tdata t)) \/ inl id (moveToMeta t))).
Proof.
  intros [Wd Hbd _] Wm Hbm Sm Sd Hmv Hme Hms Hde Hds Hmdis Hddis. cbv zeta. unfold rollback.
  destruct (area_rollback_spec (meta a) (tmeta t) Wm Hbm Sm Hme Hms Hmdis) as (Em1 & Wm1 & Hsm1 & _).
  destruct (fold_left _ _ _) as [[mf mt] dalloc] eqn:Ef.
  destruct (rollback_fold _ _ _ _ _ _ _ _ Wm1 Ef) as (Wmf & Hsmf & Hmt & Hdal & Hsorted).
  set (td := {| t_end := t_end (tdata t); t_allocated := dalloc; t_new := t_new (tdata t); t_freed := t_freed (tdata t) |}).
  destruct (area_rollback_spec (data a) td Wd Hbd) as (Ed & Wdr & Hsd & _);
    [apply Hsorted; [exact Sd | intros x H; apply Hmv, H] | exact Hde | exact Hds | |].
  { intros id H Hlt. apply (Hdal id Hlt) in H as [H|H]; [exact (Hddis id H Hlt) | apply Hmv, H]. }
  cbn [maxPages pageSize flRoot flPages metaTotal meta data a_end a_free].
  split_all; try reflexivity; try assumption.
  - intros id. rewrite Hsmf, Hsm1. reflexivity.
  - intros id. rewrite Hsd. cbn [td t_end t_allocated]. split; intros [Hlt H]; rewrite (Hdal id Hlt) in *; split; assumption.
Qed.

(* [r] is [a0] again: same markers and counters, both free lists well-formed with the same pages and page counts *)
Definition restored (a0 r : allocst) : Prop :=
  maxPages r = maxPages a0 /\ pageSize r = pageSize a0 /\ flRoot r = flRoot a0 /\ flPages r = flPages a0 /\
  metaTotal r = metaTotal a0 /\
  a_end (meta r) = a_end (meta a0) /\ wff 2 (a_free (meta r)) /\
  (forall id, inl id (Mset r) <-> inl id (Mset a0)) /\ avail (a_free (meta r)) = avail (a_free (meta a0)) /\
  a_end (data r) = a_end (data a0) /\ wff 2 (a_free (data r)) /\
  (forall id, inl id (Dset r) <-> inl id (Dset a0)) /\ avail (a_free (data r)) = avail (a_free (data a0)).

Lemma same_set_avail lo f1 f2 : wff lo f1 -> wff lo f2 ->
  (forall id, inl id (fregions f1) <-> inl id (fregions f2)) -> avail f1 = avail f2.
Proof. intros [W1 ->] [W2 ->]. apply (same_set_count _ _ lo W1 W2). Qed.

(* Rollback after ANY sequence of data allocations, frees, overwrite-page allocations, meta page allocations and
   meta frees (including every growth of the meta area they caused) restores the allocator: same markers
   and counters, and both free lists hold exactly the pages they held when the transaction began. *)
Theorem rollback_exact_full a0 p a t :
  Inv0 a0 -> treach a0 p a t -> a_end (meta a) - a_end (data a0) < 2^32 ->
  let r := rollback a t in
  maxPages r = maxPages a0 /\ pageSize r = pageSize a0 /\ flRoot r = flRoot a0 /\ flPages r = flPages a0 /\
  metaTotal r = metaTotal a0 /\
  a_end (meta r) = a_end (meta a0) /\ wff 2 (a_free (meta r)) /\
  (forall id, inl id (Mset r) <-> inl id (Mset a0)) /\ avail (a_free (meta r)) = avail (a_free (meta a0)) /\
  a_end (data r) = a_end (data a0) /\ wff 2 (a_free (data r)) /\
  (forall id, inl id (Dset r) <-> inl id (Dset a0)) /\ avail (a_free (data r)) = avail (a_free (data a0)).
Proof.
  intros I0 R Hsmall.
  destruct (treach_inv a0 p a t I0 R) as [FD Fde Fme [Fe1 Fe2] Fds Fms Fmw Fmb Fmv Fdd Fdset Fnew Fmd Fmset Ftot [Fo1 Fo2] Fst].
  destruct I0 as [ID0 MW0 ME0 MB0]. pose proof (di_end _ ID0) as He0. pose proof (di_below _ ID0) as Hb0.
  destruct (rollback_sets a t FD Fmw) as (R1 & R2 & R3 & R4 & R5 & R6 & R7 & R8 & R9 & R10 & R11);
    rewrite ?Fme, ?Fde; try assumption; try lia.
  - intros id H. destruct (Fmb _ H). lia.
  - intros id H. destruct (Fmv _ H) as (A & B & _). split; [lia | exact A].
  - intros id H _. exact (Fmd id H).
  - rewrite Fme in R6, R8. rewrite Fde in R9, R11.
    (* the sets: nothing moved was in the meta free list of the committed state *)
    assert (Hm: forall id, inl id (Mset (rollback a t)) <-> inl id (Mset a0)).
    { intros id. rewrite R8, Fmset. split.
      - tauto.
      - intros H. destruct (MB0 _ H) as [A B]. split; [split; [lia | left; exact H]|].
        intros Hv. destruct (Fmv _ Hv) as (_ & _ & [C|C]); [exact (A C) | lia]. }
    assert (Hd: forall id, inl id (Dset (rollback a t)) <-> inl id (Dset a0)).
    { intros id. rewrite R11. split; [intros [Hlt H]; apply (Fdset id Hlt), H|].
      intros H. pose proof (Hb0 _ H) as Hlt. split; [exact Hlt | apply (Fdset id Hlt), H]. }
    destruct Fst as (Z1 & Z2 & Z3 & Z4).
    cbv zeta. split_all; try congruence; try assumption; [lia | exact (same_set_avail 2 _ _ R7 MW0 Hm) | exact (same_set_avail 2 _ _ R10 (di_wf _ ID0) Hd)].
Qed.
