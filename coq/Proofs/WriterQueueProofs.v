(* The writer queue preserves the schedule: for every interleaving of Schedule / Sync calls with nextCommand calls of
   ANY buffer sizes, what the goroutine has executed so far followed by what the queue still holds is exactly the
   sequence of writes and syncs in the order they were scheduled. In particular a sync is executed after all writes
   scheduled before it and before every write scheduled after it - the barrier the commit protocol relies on
   (C01, C03, C08). The variant that tests "sync due" against all queued writes and clamps to the buffer afterwards
   (seeded change C01f) is refuted. *)
From VF Require Import WriterQueue.
From Coq Require Import Lia.

Section P.
Context {A : Type}.
Notation ev := (ev A).
Notation wq := (wq A).
Notation qop := (qop A).

Fixpoint interleave (ws : list A) (cs : list nat) : list ev :=
  match cs with
  | [] => map EW ws
  | c :: rest => map EW (firstn c ws) ++ ES :: interleave (skipn c ws) rest
  end.

(* the queue contents as a sequence of events *)
Definition remaining (s : wq) : list ev :=
  match q_fsync s with
  | [] => map EW (q_sched s)
  | c :: rest => interleave (q_sched s) ((c - q_published s) :: rest)
  end.

Definition sum (l : list nat) : nat := fold_right Nat.add 0 l.

Definition Inv (s : wq) : Prop :=
  match q_fsync s with
  | [] => q_pending s = q_published s + length (q_sched s)
  | c :: rest => q_published s <= c /\ (c - q_published s) + sum rest + q_pending s = length (q_sched s)
  end.

Lemma inv_init : Inv wq_init. Proof. reflexivity. Qed.

Lemma interleave_app_w : forall cs ws x, sum cs <= length ws ->
  interleave (ws ++ [x]) cs = interleave ws cs ++ [EW x].
Proof.
  induction cs as [|c rest IH]; intros ws x H; cbn [interleave].
  - rewrite map_app. reflexivity.
  - cbn [sum fold_right] in H. fold (sum rest) in H.
    rewrite firstn_app, skipn_app. replace (c - length ws) with 0 by lia. cbn [firstn skipn]. rewrite app_nil_r.
    rewrite IH by (rewrite skipn_length; lia). rewrite <- app_assoc. reflexivity.
Qed.

Lemma interleave_app_s : forall cs ws p, sum cs + p = length ws ->
  interleave ws (cs ++ [p]) = interleave ws cs ++ [ES].
Proof.
  induction cs as [|c rest IH]; intros ws p H; cbn [interleave app].
  - cbn in H. subst p. rewrite firstn_all, skipn_all. reflexivity.
  - cbn [sum fold_right] in H. fold (sum rest) in H.
    rewrite IH by (rewrite skipn_length; lia). rewrite <- app_assoc. reflexivity.
Qed.

(* m of the c writes before the next sync are taken off the front *)
Lemma interleave_take rest : forall m c (ws : list A), m <= c ->
  interleave ws (c :: rest) = map EW (firstn m ws) ++ interleave (skipn m ws) ((c - m) :: rest).
Proof.
  induction m as [|m IH]; intros c ws H; [rewrite Nat.sub_0_r; reflexivity|].
  destruct c as [|c]; [lia|]. destruct ws as [|x ws]; [cbn; rewrite firstn_nil, skipn_nil; reflexivity|].
  cbn [Nat.sub firstn skipn map app]. rewrite <- IH by lia. reflexivity.
Qed.

Lemma same_branches {B} (l : list A) (x : B) : match l with [] => x | _ :: _ => x end = x.
Proof. destruct l; reflexivity. Qed.

Lemma sum_snoc l p : sum (l ++ [p]) = sum l + p.
Proof. induction l as [|x l IH]; cbn; [lia|]. fold (sum (l ++ [p])) (sum l). lia. Qed.

Lemma schedule_step s id : Inv s -> remaining (wq_schedule s id) = remaining s ++ [EW id] /\ Inv (wq_schedule s id).
Proof.
  unfold Inv, remaining, wq_schedule. cbn [q_sched q_fsync q_pending q_published]. rewrite app_length.
  destruct (q_fsync s) as [|c rest]; [intros H; split; [apply map_app | cbn; lia]|].
  intros [H1 H2]. split; [apply interleave_app_w; cbn; fold (sum rest) | cbn]; lia.
Qed.

Lemma sync_step s : Inv s -> remaining (wq_sync s) = remaining s ++ [ES] /\ Inv (wq_sync s).
Proof.
  unfold Inv, remaining, wq_sync. cbn [q_sched q_fsync q_pending q_published].
  destruct (q_fsync s) as [|c rest]; cbn [app].
  - intros H. replace (q_pending s - q_published s) with (length (q_sched s)) by lia. cbn [interleave].
    rewrite firstn_all, skipn_all. split; [reflexivity | cbn; lia].
  - intros [H1 H2]. rewrite sum_snoc. split; [apply (interleave_app_s (_ :: rest)); cbn; fold (sum rest) |]; lia.
Qed.

Lemma next_step B s : Inv s ->
  match wq_next B s with
  | Some (taken, b, s1) => cmd_events taken b ++ remaining s1 = remaining s /\ Inv s1
  | None => True
  end.
Proof.
  destruct s as [ws fs pend pub]. unfold wq_next, Inv, remaining, cmd_events. cbn [q_sched q_fsync q_pending q_published].
  destruct fs as [|c rest].
  - intros H. destruct ws as [|w ws'] eqn:Ews; [exact I|]. rewrite <- Ews in *. cbn [q_sched q_fsync q_pending q_published].
    rewrite app_nil_r, <- map_app, firstn_skipn. split; [reflexivity|]. rewrite <- Nat.add_assoc, <- app_length, firstn_skipn. exact H.
  - intros [H1 H2]. rewrite same_branches. cbv zeta. set (m := Nat.min B (length ws)). set (o := c - pub) in *.
    destruct (o <=? m) eqn:Eo; cbn [q_sched q_fsync q_pending q_published].
    + (* the sync is due: exactly the outstanding writes, then the sync *)
      rewrite <- app_assoc, skipn_length. apply Nat.leb_le in Eo.
      destruct rest as [|c1 rest1]; [split; [reflexivity | cbn in H2; lia]|]. rewrite Nat.sub_0_r.
      split; [reflexivity | cbn in H2; fold (sum rest1) in H2; lia].
    + (* not yet: m writes, the sync stays queued *)
      apply Nat.leb_gt in Eo. rewrite app_nil_r, skipn_length, firstn_length_le, Nat.sub_add_distr by apply Nat.le_min_r.
      fold o. split; [symmetry; apply interleave_take | unfold o in *]; lia.
Qed.

Theorem run_preserves_schedule : forall ops s,
  Inv s ->
  let '(s', out, inp) := wq_run s ops in
  out ++ remaining s' = remaining s ++ inp /\ Inv s'.
Proof.
  induction ops as [|o ops IH]; intros s I; cbn [wq_run]; [rewrite app_nil_r; split; [reflexivity | exact I]|].
  destruct o as [id| |B].
  - destruct (schedule_step s id I) as [R I1].
    specialize (IH _ I1). destruct (wq_run (wq_schedule s id) ops) as [[s' out] inp].
    destruct IH as [E I']. split; [|exact I']. rewrite E, R, <- app_assoc. reflexivity.
  - destruct (sync_step s I) as [R I1].
    specialize (IH _ I1). destruct (wq_run (wq_sync s) ops) as [[s' out] inp].
    destruct IH as [E I']. split; [|exact I']. rewrite E, R, <- app_assoc. reflexivity.
  - pose proof (next_step B s I) as N. destruct (wq_next B s) as [[[taken b] s1]|]; [|exact (IH s I)].
    destruct N as [R I1]. specialize (IH _ I1). destruct (wq_run s1 ops) as [[s' out] inp].
    destruct IH as [E I']. split; [|exact I']. rewrite <- app_assoc, E, app_assoc, R. reflexivity.
Qed.

Definition buffers_ok (ops : list qop) : Prop := forall B, In (QN B) ops -> 1 <= B.

Corollary executed_is_schedule ops :
  buffers_ok ops ->
  let '(s', out, inp) := wq_run wq_init ops in
  out ++ remaining s' = inp /\ (remaining s' = [] -> out = inp).
Proof.
  intros _. pose proof (run_preserves_schedule ops wq_init inv_init) as H.
  destruct (wq_run wq_init ops) as [[s' out] inp]. destruct H as [E _]. cbn in E.
  split; [exact E|]. intros R. rewrite R, app_nil_r in E. exact E.
Qed.

Lemma next_none_iff B (s : wq) : wq_next B s = None <-> q_sched s = [] /\ q_fsync s = [].
Proof.
  unfold wq_next. split; [|intros [-> ->]; reflexivity].
  destruct (q_sched s), (q_fsync s) as [|c rest]; [split; reflexivity | | |]; try destruct (c - _ <=? _); discriminate.
Qed.

End P.

(* the late clamp (seeded change C01f) *)
Fixpoint wq_run_late (s : wq nat) (ops : list (qop nat)) : wq nat * list (ev nat) * list (ev nat) :=
  match ops with
  | [] => (s, [], [])
  | QW id :: rest => let '(s', out, inp) := wq_run_late (wq_schedule s id) rest in (s', out, EW id :: inp)
  | QS :: rest => let '(s', out, inp) := wq_run_late (wq_sync s) rest in (s', out, ES :: inp)
  | QN B :: rest =>
      match wq_next_late_clamp B s with
      | None => wq_run_late s rest
      | Some (taken, do_sync, s1) => let '(s', out, inp) := wq_run_late s1 rest in (s', cmd_events taken do_sync ++ out, inp)
      end
  end.

(* three writes, a sync, a buffer of two: the sync is executed after two writes *)
Theorem late_clamp_refuted : exists ops,
  buffers_ok ops /\
  let '(s', out, inp) := wq_run_late wq_init ops in
  remaining s' = [] /\ out <> inp /\ inp = [EW 1; EW 2; EW 3; ES] /\ out = [EW 1; EW 2; ES; EW 3].
Proof.
  exists [QW 1; QW 2; QW 3; QS; QN 2; QN 2].
  split; [intros B H; repeat (destruct H as [[= <-]|H]; try lia); destruct H|].
  vm_compute. repeat split. discriminate.
Qed.

Example queue_ex :
  wq_run wq_init [QW 1; QW 2; QW 3; QS; QN 2; QW 4; QN 2; QS; QN 1024]
  = ({| q_sched := []; q_fsync := []; q_pending := 0; q_published := 0 |},
     [EW 1; EW 2; EW 3; ES; EW 4; ES], [EW 1; EW 2; EW 3; ES; EW 4; ES]).
Proof. vm_compute. reflexivity. Qed.
