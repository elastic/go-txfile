From VF Require Import Writer.
From Coq Require Import Lia Sorting.Permutation.

Lemma apply_msgs_app d a b : apply_msgs d (a ++ b) = apply_msgs (apply_msgs d a) b.
Proof. unfold apply_msgs. apply fold_left_app. Qed.

Lemma apply_msgs_ext l : forall d d', (forall p, d p = d' p) -> forall p, apply_msgs d l p = apply_msgs d' l p.
Proof.
  induction l as [|m l IH]; intros d d' H p; [apply H|]. apply (IH (disk_write d m) (disk_write d' m)).
  intros q. unfold disk_write. rewrite H. reflexivity.
Qed.

(* the stable sort moves a message only past messages with smaller page ids, and writes to different pages commute *)
Lemma apply_insert m l : forall d p, apply_msgs d (insert_msg m l) p = apply_msgs d (m :: l) p.
Proof.
  induction l as [|x l IH]; intros d p; [reflexivity|]. cbn [insert_msg].
  destruct (w_id m <=? w_id x) eqn:L; [reflexivity|].
  change (apply_msgs (disk_write d x) (insert_msg m l) p = apply_msgs (disk_write (disk_write d m) x) l p).
  rewrite IH. apply (apply_msgs_ext l (disk_write (disk_write d x) m)). intros q. unfold disk_write.
  destruct (q =? w_id m) eqn:Em, (q =? w_id x) eqn:Ex; try reflexivity. lia.
Qed.

Lemma apply_sorted_batch b : forall d p, apply_msgs d (sort_batch b) p = apply_msgs d b p.
Proof.
  induction b as [|m b IH]; intros d p; [reflexivity|]. cbn [sort_batch fold_right]. fold (sort_batch b).
  rewrite apply_insert. apply (IH (disk_write d m)).
Qed.

(* C03: however write.go splits the queue into batches (bs), the disk ends up as if the queued page writes had been
   applied one by one in schedule order: per page the last scheduled write wins *)
Theorem writer_last_write_wins bs : forall d p, run_batches d bs p = spec_disk d (concat bs) p.
Proof.
  induction bs as [|b rest IH]; intros d p; [reflexivity|].
  cbn [run_batches concat]. unfold spec_disk in *. rewrite IH, apply_msgs_app.
  apply apply_msgs_ext. intros q. apply apply_sorted_batch.
Qed.

(* with an UNSTABLE sort (sort.Slice, the source before the repair of D4) this is false: two
   queued writes to one page may be swapped *)
Definition unstable_example : list wmsg := [{| w_id := 5; w_buf := [1] |}; {| w_id := 5; w_buf := [2] |}].
Lemma unstable_sort_refuted :
  exists (perm : list wmsg),
    Permutation perm unstable_example /\
    (forall i j x y, nth_error perm i = Some x -> nth_error perm j = Some y -> (i <= j)%nat -> w_id x <= w_id y) /\
    apply_msgs (fun _ => None) perm 5 <> spec_disk (fun _ => None) unstable_example 5.
Proof.
  exists [{| w_id := 5; w_buf := [2] |}; {| w_id := 5; w_buf := [1] |}]. split; [|split].
  - apply perm_swap.
  - intros i j x y Hi Hj _. apply nth_error_In in Hi, Hj.
    destruct Hi as [<-|[<-|[]]], Hj as [<-|[<-|[]]]; apply Z.le_refl.
  - cbn. discriminate.
Qed.
