(* C12 -- Queue reclaims space, reports full without loss, and can always be drained.
   Space: the framed stream of any events is at most 7 bytes per event longer than their payload, so the
   un-ACKed events occupy at most ceil((bytes + 7*events)/P) + 1 pages whatever passed through before.
   Full file: a failed flush changes nothing in the abstract queue; an ACK is refused only when it asks
   for more than is pending. That ACK commits on a full file (overflow area) and that the pages of ACKed
   events return to the file is decided by the campaign (fill-to-error / drain cycles, page accounting). *)
From VF Require Import PQ PQProofs.

Theorem C12_space_bound : forall P evs pos,
  (length (layout_from P pos evs) <= total_bytes evs + (2 * hdr_len - 1) * length evs)%nat.
Proof. exact layout_space_bound. Qed.
Print Assumptions C12_space_bound.

Theorem C12_full_no_loss : forall q, aq_step q AFlushFail = q.
Proof. exact aq_flush_fail_keeps. Qed.
Theorem C12_ack_refused_only_if_too_many : forall q n, (aq_pending q < n)%nat -> aq_step q (AAck n) = q.
Proof. exact aq_ack_too_many. Qed.
Theorem C12_drain_then_flush : forall q,
  aq_contents (aq_step q AFlush) = aq_contents q ++ q_buffered q \/ (length (q_flushed q) < q_acked q)%nat.
Proof. exact aq_flush. Qed.

Example C12_ex : (length (layout 996 [repeat 1%Z 1000; repeat 2%Z 10]) <=? 1010 + 7 * 2)%nat = true.
Proof. vm_compute. reflexivity. Qed.

(* ---- which pages an ACK gives back (Model/PQAck.v: collectFreePages over the page headers; the model is run on
   the real page headers and compared with what the implementation freed at every ACK of the campaign).
   ps: for every event still referenced by the chain, the index of the page its header starts in
   (non-decreasing); T: the writer's page; N: events ACKed afterwards. The ACK frees exactly the pages before
   the page in which the last ACKed event starts: every freed page is fully ACKed, the writer's page is never
   freed, and no page that could be freed under this rule is held back - so the pages held are those from the
   last ACKed event's page on: un-ACKed events plus at most the page(s) of one ACKed event. ---- *)
From VF Require Import PQAck PQAckProofs.
Open Scope nat_scope.
Theorem C12_ack_frees_exactly : forall ps h T N,
  mono ps -> (forall p, In p ps -> h <= p <= T) -> 1 <= N <= length ps ->
  ack_pages ps h T N = (nth (N - 1) ps 0, false).
Proof. exact ack_pages_spec. Qed.
Print Assumptions C12_ack_frees_exactly.
Theorem C12_ack_frees_only_acked_pages : forall ps h T N,
  mono ps -> (forall p, In p ps -> h <= p <= T) -> 1 <= N <= length ps ->
  let kept := fst (ack_pages ps h T N) in
  h <= kept <= T /\ forall i, N - 1 <= i < length ps -> kept <= nth i ps 0.
Proof. exact ack_frees_only_acked_pages. Qed.
Theorem C12_ack_new_read_position : forall ps h T N,
  mono ps -> (forall p, In p ps -> h <= p <= T) -> 1 <= N <= length ps ->
  let kept := fst (ack_pages ps h T N) in
  cnt_lt ps kept + ack_skips ps kept N = N /\ forall i, cnt_lt ps kept <= i < N -> nth i ps 0 = kept.
Proof. exact ack_skips_spec. Qed.
Example C12_ex_ack : ack_pages [0; 0; 0; 1; 1; 3; 3] 0 4 4 = (1, false) /\ ack_skips [0; 0; 0; 1; 1; 3; 3] 1 4 = 1.
Proof. split; reflexivity. Qed.

(* ---- the ACK theorem applies to everything the writer can lay out ----
   The pages in which the headers of the events start, as produced by the framing rule (4-byte header never split
   across a page end), are non-decreasing and inside the chain: the hypotheses of C12_ack_frees_exactly hold for
   every list of events, every payload size and every ACK count. *)
From VF Require Import PQLayoutProofs.
Theorem C12_ack_on_every_layout : forall P evs N,
  (0 < P)%nat -> (1 <= N <= length evs)%nat ->
  let ps := starts P evs in
  let T := (length (layout P evs) / P)%nat in
  ack_pages ps 0 T N = (nth (N - 1) ps 0%nat, false) /\
  (forall i, (N - 1 <= i < length evs)%nat -> (nth (N - 1) ps 0 <= nth i ps 0)%nat) /\
  mono ps.
Proof. exact ack_on_layout. Qed.
Print Assumptions C12_ack_on_every_layout.

Example C12_ex_ack_on_layout :
  starts 100 [repeat 1%Z 50; repeat 2%Z 60; repeat 3%Z 10; repeat 4%Z 300] = [0; 0; 1; 1]%nat /\
  ack_pages (starts 100 [repeat 1%Z 50; repeat 2%Z 60; repeat 3%Z 10; repeat 4%Z 300]) 0 4 3 = (1%nat, false).
Proof. exact ack_on_layout_ex. Qed.

(* the correspondence check runs the binary version of [starts_from] (positions in long chains): it is the same function *)
Theorem C12_starts_binary_is_starts : forall P, (0 < P)%nat -> forall evs pos,
  map Z.of_nat (starts_from P pos evs) = starts_fromZ (Z.of_nat P) (Z.of_nat pos) (map (fun e => Z.of_nat (length e)) evs).
Proof. exact starts_fromZ_spec. Qed.
Print Assumptions C12_starts_binary_is_starts.

(* ---- the page headers the ACK works on are the ones the writer produces (Model/PQWriter.v; Proofs/PQWriterHeaderProofs.v).
   The ACK model above takes the page structure "as the writer maintains it": off = 0 iff no event starts in the page,
   otherwise first = id0 + (events starting in earlier pages), last = id0 + (events starting up to this page) - 1.
   For EVERY run of Write / Next / Flush calls of the writer model, with every flush outcome, this is what every page the
   writer created in the session carries in its header fields - in the buffer, in the released pages, and therefore
   (the K1 comparison of every flush's page images) in the file: the start pages are `starts_from` of the completed
   events, the function C12_ack_on_every_layout is about. ---- *)
From VF Require Import PQWriter PQWriterProofs PQWriterHeaderProofs.
Theorem C12_writer_maintains_the_page_headers : forall PS, (hdr_len <= payload PS)%nat ->
  forall pages tail endId root ops,
  match tail with Some t => (length (wp_data t) <= payload PS)%nat | None => True end ->
  let base := match tail with Some t => wp_data t | None => [] end in
  let '(s, rs) := w_run PS (w_init PS pages tail endId root) ops in
  let '(done, cur) := spec_run ([], []) ops rs in
  ws_evId s = (endId + Z.of_nat (length done))%Z /\
  forall j p, (1 <= j)%nat -> nth_error (ws_hist s ++ b_pages (ws_buf s)) j = Some p ->
    let ps := starts_from (payload PS) (length base) done in
    (starts_in ps j = false -> wp_off p = 0%nat) /\
    (starts_in ps j = true -> wp_off p <> 0%nat /\ wp_first p = (endId + Z.of_nat (cnt_lt ps j))%Z /\
                              wp_last p = (endId + Z.of_nat (cnt_le ps j) - 1)%Z).
Proof.
  intros PS HP pages tail endId root ops Ht. cbn zeta.
  pose proof (w_run_lift PS _ _ (HI_kept PS HP endId _) ops _ [] []
    (conj (w_init_SI PS HP pages tail endId root Ht) (w_init_HInv PS pages tail endId root))) as H.
  destruct (w_run PS (w_init PS pages tail endId root) ops) as [s rs].
  destruct (spec_run ([], []) ops rs) as [done cur].
  destruct H as [_ [Hid Hpg]]. split; [exact Hid|].
  intros j p Hj Hn. apply (Hpg j (hcore p) Hj). unfold hcores. rewrite nth_error_map, Hn. reflexivity.
Qed.
Print Assumptions C12_writer_maintains_the_page_headers.

(* non-vacuity: the run of C05_ex_writer (payload 12 bytes): event 0 starts in page 0, event 1 in page 1; page 2 holds only
   the rest of event 1 and the open header *)
Example C12_ex_page_headers :
  let ops := [WWrite [1;2] FFailEarly; WWrite [3;4;5] FFailEarly; WNext FFailEarly; WWrite [6;7;8] FFailEarly;
              WFlush (FFailLate [7]); WFlush (FOk [7; 9]); WWrite [9;10;11;12;13;14] FFailEarly; WNext FFailEarly] in
  let '(s, rs) := w_run 40 (w_init 40 5 None 100 {| q_head := None; q_tail := (0, O, 0); q_inuse := 0 |}) ops in
  map (fun p => (wp_off p, wp_first p, wp_last p)) (ws_hist s ++ b_pages (ws_buf s)) = [(28%nat, 100, 100); (28%nat, 101, 101); (0%nat, 0, 0)] /\
  starts_from 12 0 (fst (spec_run ([], []) ops rs)) = [0%nat; 1%nat].
Proof. vm_compute. split; reflexivity. Qed.
