(* Abstract crash-atomicity theorem: any trace that follows the write discipline (monitor [step])
   recovers, from every crash image, the last committed state or the complete in-flight commit. *)
From VF Require Import CrashModel.
From Coq Require Import ZArith List Lia Bool.
Import ListNotations.
Open Scope Z_scope.

Section Crash.
Variable C H St : Type.
Variable hdr : C -> option (Z * H).
Variable chase : disk C -> H -> option (St * list Z).
Hypothesis chase_frame : forall d d' h st fp,
  chase d h = Some (st, fp) -> (forall p, In p fp -> d' p = d p) -> chase d' h = Some (st, fp).
Hypothesis fp_ge2 : forall d h st fp, chase d h = Some (st,fp) -> forall p, In p fp -> 2 <= p.

(* the implementation compares transaction ids modulo 2^64, which is not an order: of [older] only the two facts below
   are used *)
Variable newer : Z -> Z -> bool.
Variable nxt : Z -> Z.
Variable older : Z -> Z -> Prop.
Hypothesis older_newer : forall t' t, older t' t -> newer t t' = true /\ newer t' t = false.
Hypothesis older_nxt : forall t, older t (nxt t).

Notation disk := (disk C).
Notation select := (select C H hdr newer).
Notation recover := (recover C H St hdr chase newer).
Notation upd := (upd C).
Notation apply := (apply C).
Notation mst := (mst C H St).
Notation step := (step C H St hdr chase nxt).
Notation run := (run C H St hdr chase nxt).
Notation ev := (ev C).

(* What a crash leaves of the pending writes: any of them, in their order, each lost or arrived whole (DESIGN.md,
   assumption A-disk); but a header page may be torn, and what then stands in the slot does not validate (A-tear). *)
Inductive crashsub : list (Z*C) -> list (Z*C) -> Prop :=
| cs_nil : crashsub [] []
| cs_drop x l l' : crashsub l l' -> crashsub (x::l) l'
| cs_keep x l l' : crashsub l l' -> crashsub (x::l) (x::l')
| cs_torn p c c' l l' : p < 2 -> hdr c' = None -> crashsub l l' -> crashsub ((p,c)::l) ((p,c')::l').

Definition older_or_invalid (c:C) (t:Z) := match hdr c with None => True | Some (t',_) => older t' t end.

Definition dataw (cfp:list Z) (w:Z*C) := 2 <= fst w /\ ~ In (fst w) cfp.

Record Inv (m:mst) : Prop := {
  invA : exists h, hdr (dd m (slotp (act m))) = Some (txid m, h) /\ chase (dd m) h = Some (cst m, cfp m);
  invB : match infl m with
         | None => older_or_invalid (dd m (slotp (negb (act m)))) (txid m) /\ Forall (dataw (cfp m)) (pend m)
         | Some (c,h,st,fp) => hdr c = Some (nxt (txid m), h) /\ chase (dd m) h = Some (st,fp) /\
               ((pend m = [(slotp (negb (act m)), c)] /\ older_or_invalid (dd m (slotp (negb (act m)))) (txid m))
                \/ (pend m = [] /\ dd m (slotp (negb (act m))) = c))
         end }.

Lemma upd_same d p c : upd d p c p = c.
Proof. unfold CrashModel.upd. rewrite Z.eqb_refl. reflexivity. Qed.

Lemma upd_other d p c q : q <> p -> upd d p c q = d q.
Proof. intros Hq. unfold CrashModel.upd. rewrite (proj2 (Z.eqb_neq q p) Hq). reflexivity. Qed.

Lemma apply_app a : forall b d, apply (a ++ b) d = apply b (apply a d).
Proof. induction a as [|[p c] a IH]; intros b d; simpl; [reflexivity | apply IH]. Qed.

Lemma apply_other ws : forall d q, ~ In q (map fst ws) -> apply ws d q = d q.
Proof.
  induction ws as [|[p c] r IH]; simpl; intros d q Hq; [reflexivity|].
  rewrite IH by (intros Hr; apply Hq; right; exact Hr). apply upd_other. intros ->. apply Hq. left. reflexivity.
Qed.

Lemma apply_nodup ws : forall d p c, NoDup (map fst ws) -> In (p, c) ws -> apply ws d p = c.
Proof.
  induction ws as [|[q c0] ws IH]; simpl; intros d p c Hnd Hin; [destruct Hin|].
  apply NoDup_cons_iff in Hnd as [Hq Hnd]. destruct Hin as [[= -> ->]|Hin]; [|exact (IH _ _ _ Hnd Hin)].
  rewrite apply_other by exact Hq. apply upd_same.
Qed.

Lemma crashsub_fst {l l'} : crashsub l l' -> incl (map fst l') (map fst l).
Proof. induction 1; simpl; auto using incl_nil_l, incl_tl, incl_cons, in_eq. Qed.

Lemma crashsub_nil ws : crashsub [] ws -> ws = [].
Proof. intros Hs. inversion Hs. reflexivity. Qed.

Lemma crashsub_single p c ws : crashsub [(p,c)] ws ->
  ws = [] \/ ws = [(p,c)] \/ exists c', hdr c' = None /\ ws = [(p,c')].
Proof.
  intros Hs. inversion Hs as [|? ? ? Hn|? ? ? Hn|? ? c' ? ? _ Hbad Hn]; apply crashsub_nil in Hn; subst; eauto.
Qed.

Lemma slotp_lt2 b : slotp b < 2. Proof. destruct b; simpl; lia. Qed.
Lemma slotp_neq b : slotp b <> slotp (negb b). Proof. destruct b; simpl; lia. Qed.

Lemma chase_upd_slot {d h st fp} b c : chase d h = Some (st,fp) -> chase (upd d (slotp b) c) h = Some (st,fp).
Proof.
  intros Hc. apply (chase_frame _ _ _ _ _ Hc). intros p Hp. apply upd_other.
  pose proof (fp_ge2 _ _ _ _ Hc _ Hp). pose proof (slotp_lt2 b). lia.
Qed.

Definition committed (d:disk) (a:bool) (t:Z) (st:St) (fp:list Z) : Prop :=
  exists h, hdr (d (slotp a)) = Some (t,h) /\ chase d h = Some (st,fp).

Lemma select_active d a t h : hdr (d (slotp a)) = Some (t,h) -> older_or_invalid (d (slotp (negb a))) t ->
  select d = Some (a,t,h).
Proof.
  unfold CrashModel.select, older_or_invalid. destruct a; simpl; intros Hh Ho; rewrite Hh.
  - destruct (hdr (d 0)) as [[t0 h0]|]; [|reflexivity]. rewrite (proj2 (older_newer _ _ Ho)). reflexivity.
  - destruct (hdr (d 1)) as [[t1 h1]|]; [|reflexivity]. rewrite (proj1 (older_newer _ _ Ho)). reflexivity.
Qed.

Lemma recover_committed {d a t st fp} :
  committed d a t st fp -> older_or_invalid (d (slotp (negb a))) t -> recover d = Some st.
Proof. intros (h & Hh & Hc) Ho. unfold CrashModel.recover. rewrite (select_active d a t h Hh Ho), Hc. reflexivity. Qed.

Lemma superseded {d a t st fp} : committed d a t st fp -> older_or_invalid (d (slotp a)) (nxt t).
Proof. intros (h & Hh & _). unfold older_or_invalid. rewrite Hh. apply older_nxt. Qed.

Lemma recover_next {d a t st0 fp0 h st fp} :
  committed d a t st0 fp0 -> hdr (d (slotp (negb a))) = Some (nxt t, h) -> chase d h = Some (st,fp) -> recover d = Some st.
Proof.
  intros HA Hh Hc. apply (@recover_committed d (negb a) (nxt t) st fp); [exists h; auto|].
  rewrite negb_involutive. exact (superseded HA).
Qed.

Lemma committed_upd {d a t st fp} c : committed d a t st fp -> committed (upd d (slotp (negb a)) c) a t st fp.
Proof.
  intros (h & Hh & Hc). exists h. rewrite upd_other by apply slotp_neq. split; [exact Hh | exact (chase_upd_slot _ _ Hc)].
Qed.

Definition misses (ws:list (Z*C)) (fp:list Z) : Prop := forall q, q < 2 \/ In q fp -> ~ In q (map fst ws).

Lemma misses_slot {ws fp} d b : misses ws fp -> apply ws d (slotp b) = d (slotp b).
Proof. intros Hm. apply apply_other, Hm. left. apply slotp_lt2. Qed.

Lemma committed_apply {d a t st fp ws} : committed d a t st fp -> misses ws fp -> committed (apply ws d) a t st fp.
Proof.
  intros (h & Hh & Hc) Hm. exists h. rewrite (misses_slot _ _ Hm). split; [exact Hh|].
  apply (chase_frame _ _ _ _ _ Hc). intros p Hp. apply apply_other, Hm. right. exact Hp.
Qed.

Lemma dataw_misses {fp l ws} : Forall (dataw fp) l -> incl (map fst ws) (map fst l) -> misses ws fp.
Proof.
  intros Hd Hi q Hq Hin. apply Hi, in_map_iff in Hin as (w & <- & Hw).
  destruct (proj1 (Forall_forall _ _) Hd w Hw) as [H2 Hn]. destruct Hq; [lia | contradiction].
Qed.

Theorem crash_atomic_inv {m} : Inv m -> forall ws, crashsub (pend m) ws ->
   recover (apply ws (dd m)) = Some (cst m) \/
   (exists c h st fp, infl m = Some (c,h,st,fp) /\ recover (apply ws (dd m)) = Some st).
Proof.
  intros [HA HB] ws Hs. destruct (infl m) as [[[[c h'] st] fp]|].
  - destruct HB as (Hc' & Hch & [[Hp Hold]|[Hp Hd]]); rewrite Hp in Hs.
    + (* the new header is on its way: its write is lost, complete or torn *)
      apply crashsub_single in Hs as [-> | [-> | (c' & Hbad & ->)]]; simpl.
      * left. exact (recover_committed HA Hold).
      * right. exists c, h', st, fp. split; [reflexivity|].
        eapply (recover_next (committed_upd c HA)); [rewrite upd_same; exact Hc' | exact (chase_upd_slot _ c Hch)].
      * left. apply (recover_committed (committed_upd c' HA)).
        unfold older_or_invalid. rewrite upd_same, Hbad. exact I.
    + (* the new header is on the disk *)
      apply crashsub_nil in Hs as ->. simpl. right. exists c, h', st, fp. split; [reflexivity|].
      eapply (recover_next HA); [rewrite Hd; exact Hc' | exact Hch].
  - (* only data writes are pending, whichever of them arrive *)
    destruct HB as [Hold Hdata]. left.
    pose proof (dataw_misses Hdata (crashsub_fst Hs)) as Hm.
    apply (recover_committed (committed_apply HA Hm)).
    rewrite (misses_slot _ _ Hm). exact Hold.
Qed.

Lemma existsb_eqb_false p l : existsb (Z.eqb p) l = false <-> ~ In p l.
Proof.
  rewrite <- not_true_iff_false, existsb_exists. split; intros Hn Hx; apply Hn.
  - exists p. split; [exact Hx | apply Z.eqb_refl].
  - destruct Hx as (x & Hx & ->%Z.eqb_eq). exact Hx.
Qed.

Lemma step_inv {m e m'} : Inv m -> step m e = Some m' -> Inv m'.
Proof.
  intros [HA HB] Hstep. destruct e as [p c| |]; simpl in Hstep.
  - destruct (Z.eqb_spec p (slotp (negb (act m)))) as [->|_].
    + destruct (infl m); [discriminate|]. destruct (pend m); [|discriminate].
      destruct (hdr c) as [[t h']|] eqn:Ehc; [|discriminate].
      destruct (Z.eqb_spec t (nxt (txid m))) as [->|]; [|discriminate].
      destruct (chase (dd m) h') as [[st fp]|] eqn:Ech; [|discriminate].
      injection Hstep as <-. destruct HB as [Hold _]. split; simpl; [exact HA | auto].
    + destruct (p =? slotp (act m)); [discriminate|]. destruct (Z.ltb_spec p 2) as [|Hp2]; [discriminate|].
      destruct (infl m); [discriminate|]. destruct (existsb (Z.eqb p) (cfp m)) eqn:Eex; [discriminate|].
      injection Hstep as <-. split; simpl; [exact HA|]. destruct HB as [Hold Hd]. split; [exact Hold|].
      apply Forall_app. split; [exact Hd|]. repeat constructor; [exact Hp2 | apply existsb_eqb_false, Eex].
  - injection Hstep as <-. destruct (infl m) as [[[[c h'] st] fp]|].
    + destruct HB as (Hc' & Hch & [[Hp Hold]|[Hp Hd]]); rewrite Hp; split; simpl; auto.
      * exact (committed_upd c HA).
      * split; [exact Hc'|]. split; [exact (chase_upd_slot _ c Hch)|]. right. split; [reflexivity | apply upd_same].
    + destruct HB as [Hold Hdata]. pose proof (dataw_misses Hdata (incl_refl _)) as Hm. split; simpl.
      * exact (committed_apply HA Hm).
      * rewrite (misses_slot _ _ Hm). split; [exact Hold | constructor].
  - (* CommitOk asks for pend = [], so the header write has been synced: the second case of invB *)
    destruct (infl m) as [[[[c h'] st] fp]|]; [|discriminate]. destruct (pend m); [|discriminate].
    injection Hstep as <-. destruct HB as (Hc' & Hch & [[Hp _]|[_ Hd]]); [discriminate|]. split; simpl.
    + exists h'. rewrite Hd. split; assumption.
    + rewrite negb_involutive. split; [exact (superseded HA) | constructor].
Qed.

Theorem crash_atomic evs : forall m0 m, Inv m0 -> run m0 evs = Some m -> forall ws, crashsub (pend m) ws ->
   recover (apply ws (dd m)) = Some (cst m) \/
   (exists c h st fp, infl m = Some (c,h,st,fp) /\ recover (apply ws (dd m)) = Some st).
Proof.
  induction evs as [|e r IH]; simpl; intros m0 m Hinv Hrun.
  - injection Hrun as <-. exact (crash_atomic_inv Hinv).
  - destruct (step m0 e) as [m1|] eqn:Es; [|discriminate]. exact (IH _ _ (step_inv Hinv Es) Hrun).
Qed.

Lemma run_app a : forall m b, run m (a ++ b) = match run m a with Some m1 => run m1 b | None => None end.
Proof. induction a as [|e a IH]; intros m b; simpl; [reflexivity|]. destruct (step m e); [apply IH | reflexivity]. Qed.

Lemma run_keeps_committed es : forall m m1, Forall (fun e => e <> CommitOk) es -> run m es = Some m1 -> cst m1 = cst m.
Proof.
  induction es as [|e es IH]; simpl; intros m m1 Hne Hr; [injection Hr as <-; reflexivity|].
  apply Forall_cons_iff in Hne as [He Hne].
  destruct (step m e) as [m2|] eqn:Es; [|discriminate]. rewrite (IH _ _ Hne Hr). clear - Es He.
  destruct e as [p c| |]; [| |contradiction]; simpl in Es; [|injection Es as <-; reflexivity].
  destruct (p =? slotp (negb (act m))).
  - destruct (infl m); [discriminate|]. destruct (pend m); [|discriminate]. destruct (hdr c) as [[t h]|]; [|discriminate].
    destruct (t =? nxt (txid m)); [|discriminate]. destruct (chase (dd m) h) as [[st fp]|]; [|discriminate].
    injection Es as <-. reflexivity.
  - destruct (p =? slotp (act m)); [discriminate|]. destruct (p <? 2); [discriminate|]. destruct (infl m); [discriminate|].
    destruct (existsb (Z.eqb p) (cfp m)); [discriminate|]. injection Es as <-. reflexivity.
Qed.

Definition queue (m:mst) (ws:list (Z*C)) : mst :=
  {| dd := dd m; pend := pend m ++ ws; act := act m; txid := txid m; cst := cst m; cfp := cfp m; infl := None |}.

Lemma run_data ws : forall m, infl m = None -> Forall (dataw (cfp m)) ws ->
  run m (map (fun w => W (fst w) (snd w)) ws) = Some (queue m ws).
Proof.
  induction ws as [|[p c] ws IH]; intros m Hi Hd.
  - unfold queue. rewrite app_nil_r, <- Hi. destruct m; reflexivity.
  - apply Forall_cons_iff in Hd as [[H2 Hn] Hd].
    pose proof (slotp_lt2 (act m)). pose proof (slotp_lt2 (negb (act m))). simpl in *.
    rewrite (proj2 (Z.eqb_neq _ (slotp (negb (act m))))), (proj2 (Z.eqb_neq _ (slotp (act m)))), (proj2 (Z.ltb_ge _ 2)) by lia.
    rewrite Hi, (proj2 (existsb_eqb_false _ _) Hn), IH by (simpl; auto).
    unfold queue. simpl. rewrite <- app_assoc. reflexivity.
Qed.

(* the events of a commit as tx.go issues them (Model/Commit.v commit_events); the hypothesis on chase speaks of the disk
   that the first sync leaves *)
Lemma run_commit m ws c h st fp :
  infl m = None -> Forall (dataw (cfp m)) ws ->
  hdr c = Some (nxt (txid m), h) -> chase (apply (pend m ++ ws) (dd m)) h = Some (st,fp) ->
  run m (map (fun w => W (fst w) (snd w)) ws ++ [S; W (slotp (negb (act m))) c; S; CommitOk]) =
  Some {| dd := upd (apply (pend m ++ ws) (dd m)) (slotp (negb (act m))) c; pend := [];
          act := negb (act m); txid := nxt (txid m); cst := st; cfp := fp; infl := None |}.
Proof.
  intros Hi Hd Hh Hc. rewrite run_app, run_data by assumption. simpl.
  rewrite Z.eqb_refl, Hh, Z.eqb_refl, Hc. reflexivity.
Qed.
End Crash.
