(* The queue writer (Model/PQWriter.v) refines the framing of the event stream: whatever the producer's Write chunks
   are and whenever the buffer is flushed (successfully or not), the payload areas of all pages ever filled -
   released ones and the ones still in the buffer - hold exactly the layout of the completed events followed by the
   frame of the event being written. *)
From VF Require Import PQ PQWriter BytesProofs PQProofs PQWriterBase.
From Coq Require Import Lia.

Section Flat.
Variable P : nat.

Definition padp (d : list Z) : list Z := d ++ zeros (P - length d).
Definition flatpad (l : list (list Z)) : list Z := concat (map padp l).
Definition flat (l : list (list Z)) : list Z := flatpad (removelast l) ++ last l [].

Lemma flat_nil : flat [] = [].
Proof. reflexivity. Qed.

Lemma flat_snoc a d : flat (a ++ [d]) = flatpad a ++ d.
Proof. unfold flat. rewrite removelast_last, last_last. reflexivity. Qed.

Lemma flatpad_app a b : flatpad (a ++ b) = flatpad a ++ flatpad b.
Proof. unfold flatpad. rewrite map_app, concat_app. reflexivity. Qed.

Lemma flatpad_snoc a d : flatpad (a ++ [d]) = flatpad a ++ padp d.
Proof. rewrite flatpad_app. unfold flatpad at 2. cbn [map concat]. rewrite app_nil_r. reflexivity. Qed.

Lemma padp_length d : (length d <= P)%nat -> length (padp d) = P.
Proof. intros H. unfold padp. rewrite app_length, zeros_length. lia. Qed.

Lemma flatpad_length a : Forall (fun d => (length d <= P)%nat) a -> length (flatpad a) = (length a * P)%nat.
Proof.
  induction 1 as [|d a Hd _ IH]; [reflexivity|].
  unfold flatpad in *. cbn [map concat length]. rewrite app_length, IH, padp_length by exact Hd. reflexivity.
Qed.

Lemma padp_full d : length d = P -> padp d = d.
Proof. intros H. unfold padp. rewrite H, Nat.sub_diag. apply app_nil_r. Qed.

Lemma flat_length a d : Forall (fun d => (length d <= P)%nat) a -> length (flat (a ++ [d])) = (length a * P + length d)%nat.
Proof. intros H. rewrite flat_snoc, app_length, flatpad_length by exact H. reflexivity. Qed.

(* the stream around one page: what follows the page depends on its length only *)
Lemma flat_middle A (d : list Z) B : exists rest, forall d', length d' = length d -> flat (A ++ d' :: B) = flatpad A ++ d' ++ rest.
Proof.
  destruct (snoc_cases B) as [->|(B0 & t & ->)].
  - exists []. intros d' _. rewrite flat_snoc, app_nil_r. reflexivity.
  - exists (zeros (P - length d) ++ flatpad B0 ++ t). intros d' <-.
    change (A ++ d' :: B0 ++ [t]) with (A ++ (d' :: B0) ++ [t]).
    rewrite app_assoc, flat_snoc, flatpad_app. unfold flatpad at 2. cbn [map concat]. unfold padp at 1.
    rewrite <- !app_assoc. reflexivity.
Qed.

End Flat.

Definition spec_step (st : list (list Z) * list Z) (o : wop) (r : wres) : list (list Z) * list Z :=
  match o, r with
  | WWrite d _, WErr _ => st                         (* the write was refused: nothing was appended *)
  | WWrite d _, WOk _ => (fst st, snd st ++ d)
  | WNext _, _ => (fst st ++ [snd st], [])           (* the event is complete also when the implicit flush fails *)
  | WFlush _, _ => st
  end.

Fixpoint spec_run (st : list (list Z) * list Z) (ops : list wop) (rs : list wres) : list (list Z) * list Z :=
  match ops, rs with
  | o :: ops', r :: rs' => spec_run (spec_step st o r) ops' rs'
  | _, _ => st
  end.

(* A property I of the writer state and the events so far (done = the completed ones, cur = the bytes of the open one)
   that is kept by doFlush, the reset of the statistics, the appended data of a Write and the header handling of Next
   holds along every run; what a flush that does not fail establishes (Q) holds after a Next or Flush call that
   reports its flush. *)
Record Kept (PS : nat) (I : wst -> list (list Z) -> list Z -> Prop) (Q : wst -> fresult -> Prop) : Prop := {
  kept_flush : forall s fo done cur, I s done cur ->
    let '(s', r) := do_flush s fo in I s' done cur /\ match r with FFailed _ _ => True | _ => Q (settled s') r end;
  kept_settled : forall s done cur, I s done cur -> I (settled s) done cur;
  kept_wrote : forall s data done cur, I s done cur -> I (wrote PS s data) done (cur ++ data);
  kept_nexted : forall s done cur, I s done cur -> I (nexted PS s) (done ++ [cur]) [] }.

Section Lift.
Variables (PS : nat) (I : wst -> list (list Z) -> list Z -> Prop) (Q : wst -> fresult -> Prop).
Hypothesis K : Kept PS I Q.

Lemma flush_buffer_lift s fo done cur : I s done cur ->
  let '(s', r) := flush_buffer s fo in I s' done cur /\ match r with WOk (Some (fr, _)) => Q s' fr | _ => True end.
Proof.
  intros H. pose proof (kept_flush _ _ _ K s fo done cur H) as H1. destruct (do_flush s fo) as [s1 fr] eqn:E.
  rewrite (flush_buffer_spec s fo s1 fr E). destruct H1 as [H1 H2].
  destruct fr; (split; [try apply (kept_settled _ _ _ K); exact H1 | exact H2]).
Qed.

Theorem w_step_lift s o done cur : I s done cur ->
  let '(s', r) := w_step PS s o in
  let '(done', cur') := spec_step (done, cur) o r in
  I s' done' cur' /\
  match o with WWrite _ _ => True | _ => match r with WOk (Some (fr, _)) => Q s' fr | _ => True end end.
Proof.
  intros H. destruct o as [data fo|fo|fo]; cbn [w_step].
  - destruct (_ <=? _); [|exact (conj (kept_wrote _ _ _ K s data done cur H) Logic.I)].
    pose proof (flush_buffer_lift s fo done cur H) as H1. destruct (flush_buffer s fo) as [s1 [fl|fl]]; destruct H1 as [H1 _].
    + exact (conj (kept_wrote _ _ _ K s1 data done cur H1) Logic.I).
    + exact (conj H1 Logic.I).
  - pose proof (kept_nexted _ _ _ K s done cur H) as H1. progress fold (nexted PS s). destruct (_ <=? _); [|exact (conj H1 Logic.I)].
    pose proof (flush_buffer_lift _ fo _ _ H1) as H2. destruct (flush_buffer (nexted PS s) fo) as [s2 r]. exact H2.
  - pose proof (flush_buffer_lift s fo done cur H) as H1. destruct (flush_buffer s fo) as [s1 r]. exact H1.
Qed.

Theorem w_run_lift : forall ops s done cur, I s done cur ->
  let '(s', rs) := w_run PS s ops in
  let '(done', cur') := spec_run (done, cur) ops rs in
  I s' done' cur'.
Proof.
  induction ops as [|o ops IH]; intros s done cur H; cbn [w_run spec_run]; [exact H|].
  pose proof (w_step_lift s o done cur H) as H1. destruct (w_step PS s o) as [s1 r].
  destruct (spec_step (done, cur) o r) as [done1 cur1] eqn:E.
  specialize (IH s1 done1 cur1 (proj1 H1)). destruct (w_run PS s1 ops) as [s2 rs]. cbn [spec_run]. rewrite E. exact IH.
Qed.

Theorem w_run_step_lift ops o s done cur : I s done cur ->
  let '(s1, rs) := w_run PS s ops in
  let '(s2, r) := w_step PS s1 o in
  let '(done', cur') := spec_step (spec_run (done, cur) ops rs) o r in
  I s2 done' cur' /\
  match o with WWrite _ _ => True | _ => match r with WOk (Some (fr, _)) => Q s2 fr | _ => True end end.
Proof.
  intros H. pose proof (w_run_lift ops s done cur H) as H1. destruct (w_run PS s ops) as [s1 rs].
  destruct (spec_run (done, cur) ops rs) as [done1 cur1]. exact (w_step_lift s1 o done1 cur1 H1).
Qed.

End Lift.

Section Buf.
Variable PS : nat.
Notation P := (payload PS).
Hypothesis HP : (hdr_len <= P)%nat.

Definition pdata (l : list wpage) : list (list Z) := map wp_data l.
Definition okp (D : list (list Z)) : Prop := Forall (fun d => (length d <= P)%nat) D.

Lemma pdata_upd_last_push d l : pdata (upd_last (push d) l) = upd_last (fun x => x ++ d) (pdata l).
Proof. unfold upd_last, pdata. rewrite map_length. apply map_upd_nth_comm. reflexivity. Qed.

Lemma pdata_snoc (Dh : list (list Z)) a t : Dh ++ pdata (a ++ [t]) = (Dh ++ pdata a) ++ [wp_data t].
Proof. unfold pdata. rewrite map_app. apply app_assoc. Qed.

Lemma pad_at_pos n t : (t <= P)%nat -> pad_at P (n * P + t) = if (P - t <? hdr_len)%nat then (P - t)%nat else O.
Proof.
  intros Ht. pose proof hdr_len_4. unfold pad_at.
  assert (HP0 : P <> O) by lia.
  destruct (Nat.eq_dec t P) as [->|Hne].
  - replace (n * P + P)%nat with (0 + (S n) * P)%nat by lia. rewrite Nat.mod_add by exact HP0.
    rewrite Nat.mod_0_l by exact HP0. rewrite Nat.sub_0_r, Nat.sub_diag.
    destruct (Nat.ltb_spec P hdr_len); [lia|]. destruct (Nat.ltb_spec 0 hdr_len); [reflexivity|lia].
  - rewrite Nat.add_comm, Nat.mod_add by exact HP0. rewrite Nat.mod_small by lia. reflexivity.
Qed.

(* all = the stream held by the released pages Dh and the buffer pages: the tail page may have an unused rest, which is
   the padding in front of the next header if that does not fit *)
Lemma stream_end Dh b all :
  (b_pages b = [] -> Dh = []) -> okp (Dh ++ pdata (b_pages b)) -> flat P (Dh ++ pdata (b_pages b)) = all ->
  flatpad P (Dh ++ pdata (b_pages b)) = all ++ zeros (room PS b) /\
  zeros (pad_at P (length all)) = if (room PS b <? hdr_len)%nat then zeros (room PS b) else [].
Proof.
  intros Hemp Hok <-. destruct (snoc_cases (b_pages b)) as [E|(a & t & E)].
  - rewrite (room_nil PS b E), E, (Hemp E). split; [reflexivity|].
    change (zeros (pad_at P (0 * P + 0)) = []). rewrite pad_at_pos, Nat.sub_0_r by apply Nat.le_0_l.
    destruct (Nat.ltb_spec P hdr_len); [clear - HP H; lia | reflexivity].
  - unfold room. rewrite (tail_len_snoc PS b a t E), E, pdata_snoc in *.
    apply Forall_app in Hok. destruct Hok as [Hok Ht]. inversion Ht; subst.
    rewrite flat_length, pad_at_pos, flatpad_snoc, flat_snoc, <- app_assoc by assumption.
    split; [reflexivity|]. destruct (_ <? _)%nat; reflexivity.
Qed.

(* Append and ReserveHdr: the bytes d go behind the last byte of the tail page t, or into a fresh page *)
Lemma flat_push_tail Dh b d (fresh : bool) a t all :
  (b_pages b = [] -> Dh = []) -> okp (Dh ++ pdata (b_pages b)) -> flat P (Dh ++ pdata (b_pages b)) = all ->
  tail_page fresh (b_pages b) a t ->
  (length (wp_data t) + length d <= P)%nat ->
  okp (Dh ++ pdata (a ++ [push d t])) /\
  flat P (Dh ++ pdata (a ++ [push d t])) = all ++ (if fresh then zeros (room PS b) else []) ++ d.
Proof.
  intros Hemp Hok Hflat Hc Hfit. unfold tail_page in Hc. rewrite pdata_snoc, flat_snoc. cbn [push set_data wp_data].
  assert (Hd : okp [wp_data t ++ d]) by (constructor; [rewrite app_length; exact Hfit | constructor]).
  destruct fresh.
  - destruct Hc as [-> ->]. split; [apply Forall_app; auto|]. rewrite (app_assoc all). f_equal.
    apply (stream_end Dh b all Hemp Hok Hflat).
  - rewrite Hc, pdata_snoc in Hok, Hflat. rewrite flat_snoc in Hflat. subst all.
    apply Forall_app in Hok. split; [apply Forall_app; tauto | apply app_assoc].
Qed.

(* where the header of the open event lies: in the buffer page behind the pages with the payloads DA, k bytes into its
   payload, with room for the header; g = the position in the stream (Dh = the payloads of the released pages) *)
Definition hdr_at (Dh D : list (list Z)) (hdr : option (nat * nat)) (g : nat) : Prop :=
  exists DA dp DB k, open_at D hdr DA dp DB (pgH + k) /\ (k + hdr_len <= length dp)%nat /\
    ((length Dh + length DA) * P + k = g)%nat.

(* the buffer invariant: the payloads of the released pages Dh and of the buffer pages hold the stream pre ++ open;
   the header of the open event lies behind pre *)
Record BI (Dh : list (list Z)) (b : wbuf) (pre open : list Z) : Prop := {
  bi_ok : okp (Dh ++ pdata (b_pages b));
  bi_flat : flat P (Dh ++ pdata (b_pages b)) = pre ++ open;
  bi_hdr : hdr_at Dh (pdata (b_pages b)) (b_hdr b) (length pre) }.

Lemma append_byte_BI Dh b pre open x : BI Dh b pre open -> BI Dh (append_byte PS b x) pre (open ++ [x]).
Proof.
  intros [Hok Hflat (DA & dp & DB & k & HO & Hk & Hg)]. pose proof hdr_len_4 as H4.
  destruct (append_byte_spec PS b x) as (a & t & Hc & Hp & Hh & Hfit).
  assert (Hfit' : (length (wp_data t) + 1 <= P)%nat) by (clear - Hfit HP H4; lia).
  destruct (flat_push_tail Dh b [x] _ a t _ (fun E => False_ind _ (open_at_ne HO E)) Hok Hflat Hc Hfit') as [Hok' Hflat'].
  destruct (open_at_push_tail wp_data (fun d => d ++ [x]) [x] (fun _ => eq_refl) Hc HO)
    as (dp' & DB' & HO' & Hdp').
  split; rewrite ?Hp, ?Hh.
  - exact Hok'.
  - rewrite Hflat', <- app_assoc. destruct (Nat.eqb_spec (room PS b) 0) as [->|_]; reflexivity.
  - exists DA, dp', DB', k. split; [exact HO'|]. split; [|exact Hg].
    destruct Hdp' as [->| ->]; [exact Hk | rewrite app_length; clear - Hk; lia].
Qed.

Lemma append_BI Dh : forall data b pre open, BI Dh b pre open -> BI Dh (append PS b data) pre (open ++ data).
Proof.
  unfold append. induction data as [|x data IH]; intros b pre open H; cbn [fold_left].
  - rewrite app_nil_r. exact H.
  - change (x :: data) with ([x] ++ data). rewrite app_assoc. apply IH, append_byte_BI, H.
Qed.

(* no event is open (between CommitEvent and ReserveHdr; before the first ReserveHdr the buffer may be empty):
   ReserveHdr pads the tail page if the header does not fit and opens the next event *)
Lemma reserve_hdr_BI Dh b all :
  okp (Dh ++ pdata (b_pages b)) -> flat P (Dh ++ pdata (b_pages b)) = all -> (b_pages b = [] -> Dh = []) ->
  BI Dh (reserve_hdr PS b) (all ++ zeros (pad_at P (length all))) (zeros hdr_len).
Proof.
  intros Hok Hflat Hemp.
  destruct (reserve_hdr_spec PS b) as (a & t & Hc & Hp & Hh & Hfit).
  assert (Hfit' : (length (wp_data t) + length (zeros hdr_len) <= P)%nat) by (rewrite zeros_length; exact (Hfit HP)).
  destruct (flat_push_tail Dh b (zeros hdr_len) _ a t all Hemp Hok Hflat Hc Hfit') as [Hok' Hflat'].
  rewrite <- (proj2 (stream_end Dh b all Hemp Hok Hflat)), app_assoc in Hflat'.
  split; rewrite ?Hp, ?Hh.
  - exact Hok'.
  - exact Hflat'.
  - exists (pdata a), (wp_data t ++ zeros hdr_len), [], (length (wp_data t)).
    split; [unfold pdata; rewrite map_app; split; [|rewrite map_length]; reflexivity|].
    split; [rewrite app_length, zeros_length; clear; lia|].
    (* the position of the header: the stream ends behind it *)
    apply (f_equal (@length _)) in Hflat'. rewrite pdata_snoc in Hflat', Hok'. apply Forall_app in Hok'.
    rewrite flat_length in Hflat' by tauto. cbn [push set_data wp_data] in Hflat'.
    rewrite !app_length in Hflat'. unfold pdata in *. rewrite map_length in *. rewrite app_length. clear - Hflat'. lia.
Qed.

Lemma set_hdr_size_BI Dh b pre h4 cur sz : length h4 = hdr_len -> BI Dh b pre (h4 ++ cur) ->
  BI Dh (set_hdr_size b sz) pre (le_encode hdr_len sz ++ cur).
Proof.
  intros Hh4 [Hok Hflat (DA & dp & DB & k & HO & Hk & Hg)].
  set (src := le_encode hdr_len sz). assert (Hsrc : length src = hdr_len) by apply le_encode_length.
  assert (Hlen : length (splice k src dp) = length dp) by (apply splice_length; clear - Hk Hsrc; lia).
  pose proof (open_at_set_hdr_size wp_data (splice k src) sz (fun _ => eq_refl) HO) as HO'.
  destruct HO as [HD _]. pose proof HO' as [HD' _]. unfold pdata in *. rewrite HD, app_assoc in Hok, Hflat.
  split; unfold pdata; rewrite ?HD', ?(app_assoc Dh).
  - revert Hok. unfold okp. rewrite !Forall_app, !Forall_cons_iff, Hlen. auto.
  - destruct (flat_middle P (Dh ++ DA) dp DB) as [rest Hrest]. rewrite (Hrest _ eq_refl) in Hflat. rewrite (Hrest _ Hlen).
    rewrite <- (splice_app_l k src dp rest), <- splice_app_r, Hflat by (clear - Hk Hsrc; lia).
    replace (length (flatpad P (Dh ++ DA)) + k)%nat with (length pre);
      [apply splice_exact; clear - Hsrc Hh4; lia | rewrite flatpad_length, app_length by (apply Forall_app in Hok; tauto); auto].
  - exists DA, (splice k src dp), DB, k. rewrite Hlen. split; [split; [reflexivity | exact (proj2 HO')] | auto].
Qed.

Lemma commit_event_pdata b id : pdata (b_pages (commit_event b id)) = pdata (b_pages b).
Proof.
  unfold pdata. destruct (b_hdr b) as [[i off]|] eqn:E; [|unfold commit_event; rewrite E; reflexivity].
  rewrite (commit_event_spec b id i off E).
  destruct (i =? 1)%nat; [rewrite (map_upd_nth wp_data) by reflexivity|];
    rewrite (map_mark_from wp_data (fun d => d)), map_id, firstn_skipn by reflexivity;
    apply map_upd_nth; intros p; unfold stamp; destruct (wp_off p =? 0)%nat; reflexivity.
Qed.

(* a flush does not touch the payloads: it releases the first n pages of the buffer *)
Lemma BI_released {Dh b pre open DA dp DB off} n {b'} :
  BI Dh b pre open -> open_at (pdata (b_pages b)) (b_hdr b) DA dp DB off -> (n <= length DA)%nat ->
  open_at (pdata (b_pages b')) (b_hdr b') (skipn n DA) dp DB off ->
  BI (Dh ++ firstn n DA) b' pre open.
Proof.
  intros [Hok Hflat (DA0 & dp0 & DB0 & k & HO0 & Hk & Hg)] HO Hn HO'.
  destruct (open_at_inj HO0 HO) as (-> & -> & -> & <-).
  assert (Hall : (Dh ++ firstn n DA) ++ pdata (b_pages b') = Dh ++ pdata (b_pages b)).
  { destruct HO as [-> _]. destruct HO' as [-> _]. rewrite <- app_assoc, (app_assoc (firstn n DA)), firstn_skipn. reflexivity. }
  split; rewrite ?Hall; auto.
  exists (skipn n DA), dp, DB, k. split; [exact HO'|]. split; [exact Hk|].
    rewrite <- Hg, app_length, firstn_length_le, skipn_length by exact Hn. f_equal. f_equal. clear - Hn. lia.
Qed.

End Buf.

Lemma pdata_firstn n l : pdata (firstn n l) = firstn n (pdata l).
Proof. symmetry. apply firstn_map. Qed.
Lemma pdata_skipn n l : pdata (skipn n l) = skipn n (pdata l).
Proof. symmetry. apply skipn_map. Qed.

Section W.
Variable PS : nat.
Notation P := (payload PS).
Hypothesis HP : (hdr_len <= P)%nat.

(* the stream the completed events [done] and the event being written [cur] have to produce, after [base] (what the
   tail page loaded from the file already held) *)
Definition pre_of (base : list Z) (done : list (list Z)) : list Z :=
  let l := layout_from P (length base) done in
  base ++ l ++ zeros (pad_at P (length base + length l)).

Record SI (s : wst) (base : list Z) (done : list (list Z)) (cur : list Z) : Prop := {
  si_bi : exists h4, length h4 = hdr_len /\ BI PS (pdata (ws_hist s)) (ws_buf s) (pre_of base done) (h4 ++ cur);
  si_bytes : ws_evBytes s = Z.of_nat (length cur) }.

Lemma do_flush_SI s fo base done cur : SI s base done cur -> SI (fst (do_flush s fo)) base done cur.
Proof.
  intros [(h4 & Hh4 & HBI) Hbytes]. pose proof HBI as [_ _ (DA & dp & DB & k & HO & _)].
  pose proof (do_flush_open wp_data (fun d => d) (fun _ _ => eq_refl) (fun _ _ => eq_refl) (fun _ => eq_refl) s fo HO) as H.
  pose proof (do_flush_fields s fo) as HF. destruct (do_flush s fo) as [s' r]. destruct HF as (Eb & _). cbn [fst].
  split; [exists h4; split; [exact Hh4|] | rewrite Eb; exact Hbytes].
  unfold pdata in *. destruct r as [|imgs pg al|pg al]; hnf in H.
  - destruct H as [-> _]. exact HBI.
  - destruct H as (n & dp' & Hn & -> & HO' & Hdp'). rewrite map_id in *.
    replace dp' with dp in HO' by (destruct Hdp' as [(_ & -> & _)|(_ & ->)]; reflexivity).
    exact (BI_released PS n HBI HO Hn HO').
  - destruct H as [-> HO']. rewrite <- (app_nil_r (map wp_data (ws_hist s))).
    exact (BI_released PS 0 HBI HO (Nat.le_0_l _) HO').
Qed.

Lemma settled_SI s base done cur : SI s base done cur -> SI (settled s) base done cur.
Proof. intros [H1 H2]. split; assumption. Qed.

Lemma wrote_SI s data base done cur : SI s base done cur -> SI (wrote PS s data) base done (cur ++ data).
Proof.
  intros [(h4 & Hh4 & HBI) Hb]. split; cbn [wrote ws_buf ws_hist ws_evBytes].
  - exists h4. split; [exact Hh4|]. rewrite app_assoc. apply append_BI; assumption.
  - rewrite Hb, app_length. clear. lia.
Qed.

Lemma pre_of_next base done cur :
  let all := pre_of base done ++ le_encode hdr_len (Z.of_nat (length cur)) ++ cur in
  all ++ zeros (pad_at P (length all)) = pre_of base (done ++ [cur]).
Proof.
  cbn zeta. unfold pre_of. rewrite layout_from_app. cbn [layout_from]. rewrite app_nil_r.
  unfold frame_event. rewrite <- !app_assoc. f_equal. f_equal.
  rewrite !app_length, zeros_length, le_encode_length. reflexivity.
Qed.

Lemma nexted_SI s base done cur : SI s base done cur -> SI (nexted PS s) base (done ++ [cur]) [].
Proof.
  intros [(h4 & Hh4 & HBI) Hb]. split; cbn [nexted ws_buf ws_hist ws_evBytes]; [|reflexivity].
  exists (zeros hdr_len). split; [apply zeros_length|]. rewrite app_nil_r, <- pre_of_next. cbn zeta.
  destruct (set_hdr_size_BI PS _ _ _ _ _ (ws_evBytes s) Hh4 HBI) as [Hok Hflat (DA & dp & DB & k & HO & _)]. rewrite Hb in *.
  apply reserve_hdr_BI; rewrite ?commit_event_pdata; try assumption.
  intros E. apply (f_equal pdata) in E. rewrite commit_event_pdata in E. destruct (open_at_ne HO). apply (map_eq_nil _ _ E).
Qed.

Lemma SI_kept base : Kept PS (fun s => SI s base) (fun _ _ => True).
Proof.
  split; intros.
  - pose proof (do_flush_SI s fo base done cur H) as H1. destruct (do_flush s fo) as [s' []]; auto.
  - apply settled_SI. assumption.
  - apply wrote_SI. assumption.
  - apply nexted_SI. assumption.
Qed.

Theorem w_init_SI pages tail endId r :
  match tail with Some t => (length (wp_data t) <= P)%nat | None => True end ->
  SI (w_init PS pages tail endId r) (match tail with Some t => wp_data t | None => [] end) [] [].
Proof.
  intros Ht. split; cbn [w_init ws_buf ws_hist ws_evBytes]; [|reflexivity].
  exists (zeros hdr_len). split; [apply zeros_length|]. rewrite app_nil_r.
  unfold pre_of. cbn [layout_from length app]. rewrite Nat.add_0_r.
  destruct tail as [t|]; apply (reserve_hdr_BI PS HP []); cbn [b_pages pdata map app]; try reflexivity; try discriminate.
  - constructor; [exact Ht|constructor].
  - constructor.
Qed.

Theorem writer_stream s base done cur : SI s base done cur ->
  exists h4, length h4 = hdr_len /\
    flat P (pdata (ws_hist s ++ b_pages (ws_buf s))) = pre_of base done ++ h4 ++ cur.
Proof.
  intros [(h4 & Hh4 & HBI) _]. exists h4. split; [exact Hh4|]. unfold pdata. rewrite map_app. apply (bi_flat _ _ _ _ _ HBI).
Qed.

End W.

(* The ghost field wp_disk records the payload last written to the file for a page. Invariant: every page in front of
   the page that holds the open event's header is either dirty (it is in the range of the next flush) or its disk
   version is its current payload; the header page itself, when clean, agrees with its disk version on everything in
   front of the header (or the header is the first thing in it). Released pages are clean and on disk. A flush that
   finds the head page clean writes nothing; so the invariant also says that then the open header lives in the first
   or second page of the buffer and these are clean. After a flush that does not fail no page up to the header page is
   dirty: the file holds the stream up to the open header, i.e. exactly the completed events. *)
Definition core (p : wpage) : list Z * bool * option (list Z) := (wp_data p, wp_dirty p, wp_disk p).
Definition c_data (c : list Z * bool * option (list Z)) := fst (fst c).
Definition c_dirty (c : list Z * bool * option (list Z)) := snd (fst c).
Definition c_disk (c : list Z * bool * option (list Z)) := snd c.
Definition c_settled (c : list Z * bool * option (list Z)) : Prop := c_dirty c = false -> c_disk c = Some (c_data c).
Definition c_done (c : list Z * bool * option (list Z)) : Prop := c_dirty c = false /\ c_disk c = Some (c_data c).
Definition c_hdr_ok (c : list Z * bool * option (list Z)) (k : nat) : Prop :=
  c_dirty c = false -> k = O \/ exists d, c_disk c = Some d /\ firstn k d = firstn k (c_data c).

Definition cores (l : list wpage) := map core l.

(* the page as a successful flush leaves it / as CommitEvent marks it *)
Definition cF c := (c_data c, false, Some (c_data c)).
Definition cmark c := (c_data c, true, c_disk c).

Lemma cF_done c : c_done (cF c). Proof. split; reflexivity. Qed.
Lemma settled_mark c : c_settled (cmark c). Proof. intros H. discriminate H. Qed.

Lemma hdr_ok_data d' c k : firstn k d' = firstn k (c_data c) -> c_hdr_ok c k -> c_hdr_ok (d', c_dirty c, c_disk c) k.
Proof. intros E H Hd. destruct (H Hd) as [->|(d0 & H0 & H1)]; [left; reflexivity | right]. exists d0. split; [exact H0 | exact (eq_trans H1 (eq_sym E))]. Qed.

(* F = the dirty flags of the buffer pages up to the page with the open header: a clean head page has at most the
   header page behind it, and that is clean too *)
Definition HeadInv (F : list bool) : Prop := hd true F = false -> (length F <= 2)%nat /\ Forall (fun d => d = false) F.

(* the open header lies k bytes into the payload of the page cp behind the pages CA *)
Definition PubAt (b : wbuf) CA cp CB (k : nat) : Prop :=
  open_at (cores (b_pages b)) (b_hdr b) CA cp CB (pgH + k) /\ (k + hdr_len <= length (c_data cp))%nat /\
  Forall c_settled CA /\ c_hdr_ok cp k /\ HeadInv (map c_dirty CA ++ [c_dirty cp]).

Definition PubB (b : wbuf) : Prop := exists CA cp CB k, PubAt b CA cp CB k.

(* between CommitEvent and ReserveHdr, F = the flags of all buffer pages: the head page is dirty, or nothing has happened
   yet (at most one page, clean) *)
Definition HeadC (F : list bool) : Prop := hd true F = true \/ (length F <= 1)%nat /\ Forall (fun d => d = false) F.

(* ReserveHdr opens the next header in the tail page or in a fresh, clean page behind it *)
Lemma HeadC_HeadInv F : HeadC F -> HeadInv F.
Proof. intros [Ht|[Hl Hall]] Hhd; [congruence | exact (conj (le_S _ _ Hl) Hall)]. Qed.

Lemma HeadC_fresh F : HeadC F -> HeadInv (F ++ [false]).
Proof.
  intros [Ht|[Hl Hall]] Hhd.
  - destruct F as [|d D]; cbn [hd app] in *; [split; [apply le_S, le_n | auto] | congruence].
  - split; [rewrite app_length; cbn [length]; clear - Hl; lia | apply Forall_app; auto].
Qed.

Definition Idle (b : wbuf) : Prop := Forall c_settled (cores (b_pages b)) /\ HeadC (map c_dirty (cores (b_pages b))).

Record PubInv (s : wst) : Prop := { pi_hist : Forall c_done (cores (ws_hist s)); pi_buf : PubB (ws_buf s) }.

(* the file holds everything in front of the open header *)
Definition Published (s : wst) : Prop :=
  Forall c_done (cores (ws_hist s)) /\
  exists CA cp CB k, PubAt (ws_buf s) CA cp CB k /\ Forall c_done CA /\ c_dirty cp = false.

Lemma Published_PubInv s : Published s -> PubInv s.
Proof. intros (Hh & CA & cp & CB & k & H & _). split; [exact Hh | exists CA, cp, CB, k; exact H]. Qed.

Lemma Forall_last_split {A} (Q R : A -> Prop) (a c : list A) x t :
  a ++ c = x ++ [t] -> Forall Q a -> Forall R c -> (Forall Q x /\ Forall R x \/ True) -> (In t c \/ (c = [] /\ In t a)).
Proof.
  intros E _ _ _. destruct (snoc_cases c) as [->|[c' [t' ->]]].
  - right. split; [reflexivity|]. rewrite app_nil_r in E. subst a. apply in_or_app. right. left. reflexivity.
  - left. rewrite app_assoc in E. apply app_inj_tail in E. destruct E as [_ ->]. apply in_or_app. right. left. reflexivity.
Qed.

Section Pub.
Variable PS : nat.

Lemma append_byte_PubB b x : PubB b -> PubB (append_byte PS b x).
Proof.
  intros (CA & cp & CB & k & HO & Hk & HA & Hp & HD).
  destruct (append_byte_spec PS b x) as (a & t & Hc & Hpg & Hh & _).
  destruct (open_at_push_tail core (fun c => (c_data c ++ [x], c_dirty c, c_disk c)) [x] (fun _ => eq_refl) Hc HO)
    as (cp' & CB' & HO' & Hcp').
  exists CA, cp', CB', k. unfold PubAt, cores. rewrite Hpg, Hh. split; [exact HO'|].
  destruct Hcp' as [->| ->]; [auto|]. unfold c_data at 1. cbn [fst]. rewrite app_length.
  split; [clear - Hk; lia|]. split; [exact HA|]. split; [|exact HD]. apply hdr_ok_data; [apply firstn_app_le; clear - Hk; lia | exact Hp].
Qed.

Lemma append_PubB : forall data b, PubB b -> PubB (append PS b data).
Proof. unfold append. induction data as [|x data IH]; intros b H; cbn [fold_left]; [exact H|]. apply IH, append_byte_PubB, H. Qed.

Lemma set_hdr_size_PubB b sz : PubB b -> PubB (set_hdr_size b sz).
Proof.
  intros (CA & cp & CB & k & HO & Hk & HA & Hp & HD).
  set (src := le_encode hdr_len sz). assert (Hsrc : length src = hdr_len) by apply le_encode_length.
  exists CA, (splice k src (c_data cp), c_dirty cp, c_disk cp), CB, k.
  split; [exact (open_at_set_hdr_size core (fun c => (splice k src (c_data c), c_dirty c, c_disk c)) sz (fun _ => eq_refl) HO)|].
  unfold c_data at 1. cbn [fst]. rewrite splice_length by (clear - Hk Hsrc; lia).
  split; [exact Hk|]. split; [exact HA|]. split; [|exact HD]. apply hdr_ok_data; [apply firstn_splice; clear - Hk; lia | exact Hp].
Qed.

(* CommitEvent marks the pages from the header page on, and the head page if the header page is the second one: every
   page that is not dirty is on disk as it is, and the head page is dirty *)
Lemma commit_event_Idle b id : PubB b -> Idle (commit_event b id).
Proof.
  intros (CA & cp & CB & k & [E Hh] & _ & HA & _ & HD). unfold Idle, HeadC, cores in *. rewrite (commit_event_spec b id _ _ Hh).
  assert (E2 : map core (mark_from (length CA) (upd_nth (length CA) (stamp (pgH + k) id) (b_pages b))) = CA ++ map cmark (cp :: CB)).
  { rewrite (map_mark_from core cmark), (map_upd_nth core), E, firstn_app_exact, skipn_app_exact by
      (try reflexivity; intros p; unfold stamp; destruct (wp_off p =? 0)%nat; reflexivity).
    reflexivity. }
  assert (HS : Forall c_settled (CA ++ map cmark (cp :: CB))) by (apply Forall_app; split; [exact HA | apply Forall_map_all, settled_mark]).
  destruct CA as [|a0 [|a1 CA]]; cbn [length Nat.eqb] in *; [|rewrite (map_upd_nth_comm core _ cmark) by reflexivity|]; rewrite E2.
  - split; [exact HS | left; reflexivity].
  - split; [apply Forall_upd_nth; [intros c _; apply settled_mark | exact HS] | left; reflexivity].
  - (* the open header is in the third page or later: the head page is dirty already *)
    split; [exact HS | left]. cbn [app map hd] in *. destruct (c_dirty a0); [reflexivity|].
    destruct (HD eq_refl) as [Hl _]. cbn [length] in Hl. rewrite app_length in Hl. cbn [length] in Hl. clear - Hl. lia.
Qed.

Lemma reserve_hdr_PubB b : Idle b -> PubB (reserve_hdr PS b).
Proof.
  intros [Hs Hd]. destruct (reserve_hdr_spec PS b) as (a & t & Hc & Hp & Hh & _).
  exists (cores a), (core (push (zeros hdr_len) t)), [], (length (wp_data t)). unfold PubAt, cores, tail_page in *. rewrite Hp, Hh.
  split; [rewrite map_app; split; [|rewrite map_length]; reflexivity|].
  split; [unfold c_data; cbn [core push set_data wp_data fst]; rewrite app_length, zeros_length; apply le_n|].
  destruct (room PS b <? hdr_len)%nat.
  - (* the header went into a fresh page: a clean page behind the pages of the buffer *)
    destruct Hc as [-> ->]. split; [exact Hs|]. split; [intros _; left; reflexivity | exact (HeadC_fresh _ Hd)].
  - rewrite Hc, map_app in Hs. rewrite Hc, !map_app in Hd. apply Forall_app in Hs. destruct Hs as [Ha Ht].
    split; [exact Ha|]. split; [|exact (HeadC_HeadInv _ Hd)].
    intros Hd'. right. exists (wp_data t). split; [exact (Forall_inv Ht Hd') | symmetry; apply firstn_app_le, le_n].
Qed.

(* a flush that does not fail leaves every page up to the header page clean; also one that finds nothing to write,
   because then the head page is clean *)
Lemma do_flush_Pub s fo : PubInv s ->
  let '(s', r) := do_flush s fo in PubInv s' /\ match r with FFailed _ _ => True | _ => Published s' end.
Proof.
  intros [Hhist (CA & cp & CB & k & HB)]. pose proof HB as (HO & Hk & HA & Hp & HD).
  pose proof (do_flush_open core cF (fun _ _ => eq_refl) (fun _ _ => eq_refl) (fun _ => eq_refl) s fo HO) as H.
  destruct (do_flush s fo) as [s' r]. unfold cores in *.
  destruct r as [|imgs pg al|pg al]; [assert (HPub : Published s'); [|split; [apply Published_PubInv|]; exact HPub]..|].
  - destruct H as [-> (h & Eh & Dh)]. split; [exact Hhist|]. exists CA, cp, CB, k. split; [exact HB|].
    destruct HD as [_ Hcl]; [destruct CA; cbn [map app hd] in *; rewrite <- Eh; exact Dh|].
    apply Forall_app in Hcl. destruct Hcl as [HclA Hclp]. split; [|exact (Forall_inv Hclp)].
    rewrite Forall_map in HclA. rewrite Forall_forall in *. intros c Hc. split; [exact (HclA c Hc) | exact (HA c Hc (HclA c Hc))].
  - destruct H as (n & cp' & Hn & E & HO' & Hcp').
    (* afterwards the header page is clean, and at most one page is left in front of it *)
    assert (Hs : (length CA - n <= 1)%nat /\ c_dirty cp' = false /\ length (c_data cp') = length (c_data cp) /\ c_hdr_ok cp' k).
    { destruct Hcp' as [(Hl & -> & p & <- & Dp)|(Hl & ->)]; repeat split.
      - clear - Hl. lia.
      - exact Dp.
      - exact Hp.
      - clear - Hl. lia.
      - intros _. right. exists (c_data cp). split; reflexivity. }
    destruct Hs as (Hl & Hd' & Hlen & Hp').
    split; [unfold cores; rewrite E; apply Forall_app; split; [exact Hhist | apply Forall_map_all, cF_done]|].
    exists (map cF (skipn n CA)), cp', CB, k. split; [|split; [apply Forall_map_all, cF_done | exact Hd']].
    split; [exact HO'|]. split; [rewrite Hlen; exact Hk|]. split; [apply Forall_map_all; intros c _; reflexivity|]. split; [exact Hp'|].
    intros _. rewrite Hd', app_length, !map_length, skipn_length. split; [cbn [length]; clear - Hl; lia|].
    apply Forall_app. split; [rewrite map_map; apply Forall_map_all; reflexivity | auto].
  - destruct H as [E HO']. split; [|exact I]. split; [unfold cores; rewrite E; exact Hhist | exists CA, cp, CB, k; exact (conj HO' (proj2 HB))].
Qed.

Lemma Pub_kept : Kept PS (fun s _ _ => PubInv s) (fun s _ => Published s /\ ws_active s = 0).
Proof.
  split; intros.
  - pose proof (do_flush_Pub s fo H) as H1. destruct (do_flush s fo) as [s' []]; repeat split; try apply H1.
  - destruct H as [Ha Hb]. split; assumption.
  - destruct H as [Ha Hb]. split; [exact Ha | apply append_PubB; exact Hb].
  - destruct H as [Ha Hb]. split; [exact Ha | apply reserve_hdr_PubB, commit_event_Idle, set_hdr_size_PubB, Hb].
Qed.

Theorem w_init_Pub pages tail endId r :
  match tail with Some t => wp_dirty t = false /\ wp_disk t = Some (wp_data t) | None => True end ->
  PubInv (w_init PS pages tail endId r).
Proof.
  intros Ht. split; cbn [w_init ws_hist ws_buf]; [constructor|]. apply reserve_hdr_PubB.
  destruct tail as [t|]; (split; [|right]); cbn [b_pages cores map length]; repeat constructor.
  - intros _. exact (proj2 Ht).
  - exact (proj1 Ht).
Qed.

End Pub.

Definition disk_data (c : list Z * bool * option (list Z)) : list Z := match c_disk c with Some d => d | None => [] end.

Lemma disk_data_done l : Forall c_done l -> map disk_data l = map c_data l.
Proof. intros H. apply map_ext_in. intros c Hc. rewrite Forall_forall in H. unfold disk_data. rewrite (proj2 (H c Hc)). reflexivity. Qed.

Section Stream.
Variable PS : nat.
Notation P := (payload PS).
Hypothesis HP : (hdr_len <= P)%nat.

Theorem published_stream s base done cur : SI PS s base done cur -> Published s ->
  exists i off post, b_hdr (ws_buf s) = Some (i, off) /\
    flat P (map disk_data (cores (ws_hist s ++ firstn (S i) (b_pages (ws_buf s))))) = pre_of PS base done ++ post.
Proof.
  intros [(h4 & Hh4 & [Hok Hflat (DA & dp & DB & k' & HO' & Hk & Hg)]) _]
         (Hhist & CA & cp & CB & k & (HO & _ & _ & Hp & _) & HA & Hcl).
  pose proof (open_at_map c_data HO) as HOd. unfold cores, pdata in *. rewrite map_map in HOd.
  destruct (open_at_inj HO' HOd) as (-> & -> & _ & Ek). apply Nat.add_cancel_l in Ek. subst k'.
  destruct HO' as [HD _]. destruct HO as [HC Hh]. exists (length CA), (pgH + k)%nat.
  (* the pages in front of the header page are on disk as they are: the stream up to the header *)
  assert (Hpre : pre_of PS base done = flatpad P (map wp_data (ws_hist s) ++ map c_data CA) ++ firstn k (c_data cp)).
  { rewrite HD, app_assoc in Hflat, Hok. destruct (flat_middle P (map wp_data (ws_hist s) ++ map c_data CA) (c_data cp) DB) as [rest Hrest].
    rewrite (Hrest _ eq_refl) in Hflat. apply (f_equal (firstn (length (pre_of PS base done)))) in Hflat.
    rewrite firstn_app_exact in Hflat. rewrite <- Hflat, <- Hg, <- app_length.
    rewrite <- (flatpad_length P) by (apply Forall_app in Hok; tauto). rewrite firstn_app_2, firstn_app_le by (clear - Hk; lia). reflexivity. }
  assert (Ecs : map disk_data (map core (ws_hist s ++ firstn (S (length CA)) (b_pages (ws_buf s)))) =
                (map wp_data (ws_hist s) ++ map c_data CA) ++ [disk_data cp]).
  { rewrite (map_app core), <- firstn_map, HC, firstn_middle, !map_app, (disk_data_done _ Hhist), (disk_data_done _ HA), map_map, app_assoc.
    reflexivity. }
  rewrite Ecs, flat_snoc, Hpre.
  destruct (Hp Hcl) as [->|(d & Hd & Hf)].
  - exists (disk_data cp). split; [exact Hh|]. rewrite app_nil_r. reflexivity.
  - exists (skipn k d). split; [exact Hh|]. unfold disk_data. rewrite Hd, <- Hf, <- app_assoc, firstn_skipn. reflexivity.
Qed.

(* the parser of the reader, run on the payloads as they were written to the file (up to the page of the open event's
   header), returns exactly the completed events *)
Corollary published_events s base done cur : SI PS s base done cur -> Published s ->
  Forall (fun e => Z.of_nat (length e) < 256 ^ Z.of_nat hdr_len) done ->
  exists i off, b_hdr (ws_buf s) = Some (i, off) /\
    parse_from P (flat P (map disk_data (cores (ws_hist s ++ firstn (S i) (b_pages (ws_buf s)))))) (length base) (length done) = Some done.
Proof.
  intros HS HPub Hsz. destruct (published_stream s base done cur HS HPub) as (i & off & post & Hh & Hst).
  exists i, off. split; [exact Hh|]. rewrite Hst. unfold pre_of. rewrite <- !app_assoc. apply parse_layout. exact Hsz.
Qed.

(* a run, then a Next / Flush call whose flush does not fail (it may have found nothing to write): nothing is left to
   report, and everything in front of the open header, that is the completed events, is in the file *)
Theorem flush_publishes pages tail endId root ops o :
  match tail with Some t => (length (wp_data t) <= P)%nat /\ wp_dirty t = false /\ wp_disk t = Some (wp_data t) | None => True end ->
  let base := match tail with Some t => wp_data t | None => [] end in
  let '(s1, rs) := w_run PS (w_init PS pages tail endId root) ops in
  let '(s2, r) := w_step PS s1 o in
  let '(done, cur) := spec_step (spec_run ([], []) ops rs) o r in
  match o, r with
  | WNext _, WOk (Some _) | WFlush _, WOk (Some _) => SI PS s2 base done cur /\ Published s2 /\ ws_active s2 = 0
  | _, _ => True
  end.
Proof.
  intros Ht. cbn zeta.
  pose proof (w_run_step_lift PS _ _ (SI_kept PS HP _) ops o _ [] [] (w_init_SI PS HP pages tail endId root ltac:(destruct tail; tauto))) as H1.
  pose proof (w_run_step_lift PS _ _ (Pub_kept PS) ops o _ [] [] (w_init_Pub PS pages tail endId root ltac:(destruct tail; tauto))) as H2.
  destruct (w_run PS (w_init PS pages tail endId root) ops) as [s1 rs]. destruct (w_step PS s1 o) as [s2 r].
  destruct (spec_step (spec_run ([], []) ops rs) o r) as [done cur].
  destruct o; [exact I| |]; destruct r as [[[fr cb]|]|]; try exact I; exact (conj (proj1 H1) (proj2 H2)).
Qed.

Corollary flush_publishes_events pages tail endId root ops o :
  match tail with Some t => (length (wp_data t) <= P)%nat /\ wp_dirty t = false /\ wp_disk t = Some (wp_data t) | None => True end ->
  let base := match tail with Some t => wp_data t | None => [] end in
  let '(s1, rs) := w_run PS (w_init PS pages tail endId root) ops in
  let '(s2, r) := w_step PS s1 o in
  let '(done, cur) := spec_step (spec_run ([], []) ops rs) o r in
  match o, r with
  | WNext _, WOk (Some (FDone _ _ _, _)) | WFlush _, WOk (Some (FDone _ _ _, _)) =>
      Forall (fun e => Z.of_nat (length e) < 256 ^ Z.of_nat hdr_len) done ->
      exists i off, b_hdr (ws_buf s2) = Some (i, off) /\
        parse_from P (flat P (map disk_data (cores (ws_hist s2 ++ firstn (S i) (b_pages (ws_buf s2)))))) (length base) (length done) = Some done
  | _, _ => True
  end.
Proof.
  intros Ht. pose proof (flush_publishes pages tail endId root ops o Ht) as H. cbn zeta in *.
  destruct (w_run PS (w_init PS pages tail endId root) ops) as [s1 rs]. destruct (w_step PS s1 o) as [s2 r].
  destruct (spec_step (spec_run ([], []) ops rs) o r) as [done cur].
  destruct o; [exact I| |]; destruct r as [[[[] cb]|]|]; try exact I; exact (published_events s2 _ done cur (proj1 H) (proj1 (proj2 H))).
Qed.

End Stream.
