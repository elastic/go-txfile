(* The writer as a whole: scheduling queue (WriterQueue) + batch execution (Writer: stable sort by page id inside a
   batch). For every interleaving of Schedule / Sync with nextCommand calls of any buffer sizes, at every moment: the
   events executed so far are a PREFIX of the schedule (writes and syncs in scheduling order) and the disk holds, for
   every page, the last write of that prefix. Hence when a sync is executed every write scheduled before it is on
   the disk and none scheduled after it - the barrier the commit protocol needs (C01), and queued writes to one page
   land in schedule order (C03). *)
From VF Require Import Writer WriterProofs WriterQueue WriterQueueProofs.

Fixpoint writes_of (l : list (ev wmsg)) : list wmsg :=
  match l with
  | [] => []
  | EW m :: r => m :: writes_of r
  | ES :: r => writes_of r
  end.

Lemma writes_of_app a b : writes_of (a ++ b) = writes_of a ++ writes_of b.
Proof. induction a as [|[m|] a IH]; cbn; [reflexivity | rewrite IH; reflexivity | exact IH]. Qed.

Lemma writes_of_cmd taken b : writes_of (cmd_events taken b) = taken.
Proof. unfold cmd_events. induction taken as [|m t IH]; cbn; [destruct b; reflexivity | congruence]. Qed.

Lemma cmds_writes : forall ops (s : wq wmsg),
  concat (map fst (wq_cmds s ops)) = writes_of (snd (fst (wq_run s ops))).
Proof.
  induction ops as [|o ops IH]; intros s; cbn [wq_cmds wq_run]; [reflexivity|].
  destruct o as [id| |B].
  - rewrite IH. destruct (wq_run (wq_schedule s id) ops) as [[s' out] inp]. reflexivity.
  - rewrite IH. destruct (wq_run (wq_sync s) ops) as [[s' out] inp]. reflexivity.
  - destruct (wq_next B s) as [[[taken b] s1]|]; [|apply IH].
    cbn [map fst concat]. rewrite IH. destruct (wq_run s1 ops) as [[s' out] inp]. cbn [fst snd].
    rewrite writes_of_app, writes_of_cmd. reflexivity.
Qed.

Definition run_cmds (d : disk) (cmds : list (list wmsg * bool)) : disk := run_batches d (map fst cmds).

Theorem writer_executes_a_prefix_of_the_schedule ops :
  buffers_ok ops ->
  let '(s', out, inp) := wq_run wq_init ops in
  (exists rest, inp = out ++ rest) /\
  (forall d p, run_cmds d (wq_cmds wq_init ops) p = spec_disk d (writes_of out) p) /\
  (remaining s' = [] -> out = inp).
Proof.
  intros Hb. pose proof (executed_is_schedule ops Hb) as H. pose proof (cmds_writes ops wq_init) as Hc.
  destruct (wq_run wq_init ops) as [[s' out] inp]. cbn [fst snd] in Hc. destruct H as [E Hd].
  split; [exists (remaining s'); symmetry; exact E|].
  split; [|exact Hd].
  intros d p. unfold run_cmds. rewrite writer_last_write_wins, Hc. reflexivity.
Qed.
