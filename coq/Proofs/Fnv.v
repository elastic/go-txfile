(* FNV-32a (hash/fnv New32a, the checksum of the header page). A step h -> (h xor b) * prime mod 2^32 is injective
   in h and in b: the prime is odd, so it has an inverse modulo 2^32, and xor with a fixed value undoes itself. Hence
   two inputs that differ in one byte have different hashes. *)
From VF Require Import Meta.
From Coq Require Import Lia ZifyBool.

Definition inv_prime := 899433627.
Lemma inv_ok : (fnv_prime * inv_prime) mod fnv_M = 1. Proof. vm_compute. reflexivity. Qed.

Lemma mul_prime_inj a b : 0 <= a < fnv_M -> 0 <= b < fnv_M -> (a * fnv_prime) mod fnv_M = (b * fnv_prime) mod fnv_M -> a = b.
Proof.
  intros Ha Hb H.
  assert (E: ((a * fnv_prime) mod fnv_M * inv_prime) mod fnv_M = ((b * fnv_prime) mod fnv_M * inv_prime) mod fnv_M) by (rewrite H; reflexivity).
  rewrite !Z.mul_mod_idemp_l in E by (unfold fnv_M; lia).
  rewrite <- !Z.mul_assoc in E.
  rewrite <- (Z.mul_mod_idemp_r a), <- (Z.mul_mod_idemp_r b) in E by (unfold fnv_M; lia).
  rewrite inv_ok, !Z.mul_1_r in E.
  rewrite !Z.mod_small in E by lia. exact E.
Qed.

Lemma lxor_range h b : 0 <= h < fnv_M -> 0 <= b < 256 -> 0 <= Z.lxor h b < fnv_M.
Proof.
  intros Hh Hb. split.
  - apply Z.lxor_nonneg; lia.
  - destruct (Z.eq_dec (Z.lxor h b) 0) as [->|Hne]; [unfold fnv_M; lia|].
    assert (Hnn: 0 <= Z.lxor h b) by (apply Z.lxor_nonneg; lia).
    unfold fnv_M. apply Z.log2_lt_pow2; [lia|].
    eapply Z.le_lt_trans; [apply Z.log2_lxor; lia|].
    apply Z.max_lub_lt.
    + destruct (Z.eq_dec h 0) as [->|]; [simpl; lia|]. apply Z.log2_lt_pow2; unfold fnv_M in *; lia.
    + destruct (Z.eq_dec b 0) as [->|]; [simpl; lia|]. apply Z.log2_lt_pow2; [lia|]. lia.
Qed.

Lemma step_range h b : 0 <= fnv_step h b < fnv_M.
Proof. unfold fnv_step. apply Z.mod_pos_bound. unfold fnv_M; lia. Qed.

Lemma step_inj_h h1 h2 b : 0 <= h1 < fnv_M -> 0 <= h2 < fnv_M -> 0 <= b < 256 -> fnv_step h1 b = fnv_step h2 b -> h1 = h2.
Proof.
  intros H1 H2 Hb E. unfold fnv_step in E.
  apply mul_prime_inj in E; try (apply lxor_range; assumption).
  assert (X: Z.lxor (Z.lxor h1 b) b = Z.lxor (Z.lxor h2 b) b) by (rewrite E; reflexivity).
  rewrite !Z.lxor_assoc, !Z.lxor_nilpotent, !Z.lxor_0_r in X. exact X.
Qed.

Lemma step_inj_b h b1 b2 : 0 <= h < fnv_M -> 0 <= b1 < 256 -> 0 <= b2 < 256 -> fnv_step h b1 = fnv_step h b2 -> b1 = b2.
Proof.
  intros Hh H1 H2 E. unfold fnv_step in E.
  apply mul_prime_inj in E; try (apply lxor_range; assumption).
  assert (Z.lxor h (Z.lxor h b1) = Z.lxor h (Z.lxor h b2)) by (rewrite E; reflexivity).
  rewrite <- !Z.lxor_assoc, !Z.lxor_nilpotent, !Z.lxor_0_l in H. exact H.
Qed.


Lemma fnv_offset_range : 0 <= fnv_offset < fnv_M.
Proof. split; [discriminate | reflexivity]. Qed.

Lemma fnv_range l : forall h, 0 <= h < fnv_M -> 0 <= fnv l h < fnv_M.
Proof. induction l as [|b l IH]; simpl; intros h Hh; [exact Hh|]. apply IH, step_range. Qed.

Lemma fnv_inj_h l : bytes l -> forall h1 h2, 0 <= h1 < fnv_M -> 0 <= h2 < fnv_M -> fnv l h1 = fnv l h2 -> h1 = h2.
Proof.
  induction 1 as [|b l Hb _ IH]; simpl; intros h1 h2 H1 H2 E; [exact E|].
  apply IH in E; try apply step_range. eapply step_inj_h; eauto.
Qed.

Theorem fnv_single_byte pre b b' post h :
  bytes pre -> bytes post -> 0 <= b < 256 -> 0 <= b' < 256 -> 0 <= h < fnv_M -> b <> b' ->
  fnv (pre ++ b :: post) h <> fnv (pre ++ b' :: post) h.
Proof.
  intros Hpre Hpost Hb Hb' Hh Hne E. unfold fnv in E. rewrite !fold_left_app in E. simpl in E.
  fold (fnv pre h) in E. fold (fnv post) in E.
  apply fnv_inj_h in E; auto using step_range.
  apply step_inj_b in E; auto using fnv_range.
Qed.
