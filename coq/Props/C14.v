(* C14 -- Changing the maximum size on open. *)
From VF Require Import Region Freelist Alloc RegionProofs AllocProofs MetaAllocProofs ShrinkProofs ExtentProofs.

(* growing: exactly the additional pages become allocatable *)
Theorem C14_grow_exact : forall a newMax, 0 < maxPages a -> a_end (data a) <= maxPages a -> maxPages a <= newMax ->
  data_avail (with_max a newMax) = data_avail a + (newMax - maxPages a).
Proof. exact grow_exact. Qed.
Print Assumptions C14_grow_exact.

(* a former overflow area (pages behind the data area) is never handed out by the data allocator after the limit
   was raised (D12), and the data end marker never moves back (D20: the first repair of D12 did move it back on a
   file that extends beyond the new limit) *)
Theorem C14_grow_skips_overflow_area : forall oldMax newMax dataEnd metaEnd id,
  0 < oldMax -> oldMax < metaEnd -> (newMax = 0 \/ oldMax < newMax) ->
  dataEnd <= id < metaEnd ->
  let e := grow_data_end oldMax newMax dataEnd metaEnd in
  ~ (e <= id /\ (newMax = 0 \/ id < newMax)).
Proof. exact grow_skips_overflow_area. Qed.
Print Assumptions C14_grow_skips_overflow_area.

Theorem C14_grow_never_lowers_data_end : forall oldMax newMax dataEnd metaEnd,
  dataEnd <= grow_data_end oldMax newMax dataEnd metaEnd.
Proof. exact grow_never_lowers. Qed.
Print Assumptions C14_grow_never_lowers_data_end.

Theorem C14_first_repair_refuted : exists oldMax newMax dataEnd metaEnd,
  0 < oldMax /\ oldMax < newMax /\ dataEnd <= metaEnd /\ grow_data_end_v1 oldMax newMax dataEnd metaEnd < dataEnd.
Proof. exact grow_v1_lowers_refuted. Qed.
Print Assumptions C14_first_repair_refuted.

(* ---- after shrinking: the file extends beyond its limit ---- *)
(* what a commit gives back to the file system is exactly a run of free pages at the end of the file and at or
   beyond the limit: every page in use (in neither free list) stays inside the file, nothing is added to a free
   list, the file never grows and never shrinks below the limit (D18) *)
Theorem C14_commit_keeps_used_pages_in_file :
  forall newData newMeta mx dEnd mEnd lo,
  wfl lo newData -> wfl lo newMeta -> disjoint_l newData newMeta ->
  (forall id, inl id newData -> id < dEnd) -> (forall id, inl id newMeta -> id < mEnd) -> dEnd <= mEnd ->
  forall metaList dataList dEnd2 mEnd2 ovfFreed dataFreedN,
  commit_ends newData newMeta mx dEnd mEnd = (metaList, dataList, dEnd2, mEnd2, ovfFreed, dataFreedN) ->
  let fileEnd := Z.max dEnd2 mEnd2 in
  (forall id, inl id metaList <-> inl id newMeta /\ id < mEnd - ovfFreed) /\
  (forall id, inl id dataList -> inl id newData) /\
  (forall id, inl id newData -> inl id dataList \/ fileEnd <= id) /\
  (forall id, mEnd - ovfFreed <= id < mEnd -> inl id newMeta) /\
  (forall id, id < mEnd -> ~ inl id newData -> ~ inl id newMeta -> id < fileEnd) /\
  (forall id, inl id dataList -> id < dEnd2) /\
  (forall id, inl id metaList -> id < fileEnd) /\
  wfl lo metaList /\ wfl lo dataList /\
  fileEnd <= mEnd /\ (fileEnd < mEnd -> mx <> 0 /\ mx <= fileEnd) /\
  0 <= ovfFreed /\ 0 <= dataFreedN.
Proof. exact commit_ends_spec. Qed.
Print Assumptions C14_commit_keeps_used_pages_in_file.

(* the statement is false of the code before the repair: a used overflow page ended up outside the file *)
Theorem C14_old_commit_refuted : exists newData newMeta mx dEnd mEnd,
  wfl 2 newData /\ wfl 2 newMeta /\ disjoint_l newData newMeta /\
  (forall id, inl id newData -> id < dEnd) /\ (forall id, inl id newMeta -> id < mEnd) /\ dEnd <= mEnd /\
  let '(_, _, dEnd2, mEnd2, _, _) := commit_ends_old newData newMeta mx dEnd mEnd in
  exists id, id < mEnd /\ ~ inl id newData /\ ~ inl id newMeta /\ ~ id < Z.max dEnd2 mEnd2.
Proof. exact commit_ends_old_refuted. Qed.
Print Assumptions C14_old_commit_refuted.

(* on a bounded file the data allocator never moves an end marker beyond the larger of its old value and the
   limit: a file that already extends beyond a lowered limit is not extended any further (D17) *)
Theorem C14_data_alloc_cont_limit : forall a t n r a' t',
  0 < n -> 0 < maxPages a -> data_alloc_cont a t n = (r, a', t') ->
  a_end (data a') <= Z.max (a_end (data a)) (maxPages a) /\
  a_end (meta a') <= Z.max (a_end (meta a)) (maxPages a).
Proof. intros a t n r a' t' Hn Hmx E. exact (proj1 (data_alloc_cont_limit a t n r a' t' Hn Hmx E)). Qed.
Print Assumptions C14_data_alloc_cont_limit.

Theorem C14_data_alloc_regions_limit : forall a t n regs cnt a' t',
  0 < n -> 0 < maxPages a -> 0 <= avail (a_free (data a)) ->
  data_alloc_regions a t n = (regs, cnt, a', t') ->
  a_end (data a') <= Z.max (a_end (data a)) (maxPages a) /\
  a_end (meta a') <= Z.max (a_end (meta a)) (maxPages a).
Proof. intros a t n regs cnt a' t' _ Hmx _ E. exact (proj1 (data_alloc_regions_limit a t n regs cnt a' t' Hmx E)). Qed.
Print Assumptions C14_data_alloc_regions_limit.

Theorem C14_old_area_avail_refuted : exists a,
  0 < maxPages a /\ maxPages a < a_end (data a) /\ 1 <= data_area_avail_old a.
Proof. exact data_area_avail_old_refuted. Qed.
Print Assumptions C14_old_area_avail_refuted.

(* inside ANY write transaction without overflow area - every sequence of allocations, frees, overwrite-page and
   meta page allocations with every growth of the meta area - neither end marker moves beyond the larger of the
   end of the file at the begin of the transaction and the limit; the committed state may already extend beyond
   the limit (Inv0 does not bound the end markers) *)
Theorem C14_extent_in_transaction : forall a0 p a t,
  Inv0 a0 -> 0 < maxPages a0 -> treach a0 p a t ->
  let M := Z.max (a_end (meta a0)) (maxPages a0) in
  (a_end (data a) <= M /\ a_end (meta a) <= M) /\ maxPages a = maxPages a0.
Proof. exact extent_in_tx. Qed.
Print Assumptions C14_extent_in_transaction.

Example C14_ex_shrunk_state : Inv0 shrunk_ex /\ 0 < maxPages shrunk_ex /\ maxPages shrunk_ex < a_end (data shrunk_ex).
Proof. exact shrunk_ex_inv0. Qed.

(* the lock discipline of the init transaction (the max-size update) releases everything: C09 *)
Example C14_ex : grow_data_end 64 1024 64 70 = 70 /\ grow_data_end 64 66 64 70 = 66 /\ grow_data_end 64 0 64 70 = 70 /\ grow_data_end 64 32 64 70 = 64.
Proof. repeat split. Qed.

(* a side finding of a round-13 sub-agent, stated on the model (tie: allocator K1 compares commit_ends with the code):
   when the meta end marker EQUALS the data end marker (the meta area ends at the end of the file) and free meta pages at
   the end of the file are released by a shrinking commit, only the meta end marker is lowered: the released pages stay
   below the data end marker and are in no free list any more - they are lost until the file is rebuilt, and the free
   data region in front of them can no longer be released. No live page is touched and the file does not grow, so none
   of the statements of C14 / C11 (files beyond their limit are outside C11) is violated; recorded, not repaired. *)
From VF Require Import Recover.
Theorem C14_release_at_equal_end_markers_leaks : exists newData newMeta mx dEnd mEnd id,
  let '(ml, dl, dE, mE, _, _) := commit_ends newData newMeta mx dEnd mEnd in
  in_regions id newMeta = true /\ in_regions id ml = false /\ in_regions id dl = false /\ id < Z.max dE mE /\ mx <= id.
Proof.
  exists [{| rid := 60; rcount := 32 |}], [{| rid := 92; rcount := 2 |}], 50, 94, 94, 92.
  vm_compute. repeat split; try reflexivity; discriminate.
Qed.
