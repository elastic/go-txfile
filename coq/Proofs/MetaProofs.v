(* The header page (layout.go metaPage). The selection among the two slots (file.go readValidMeta, findSecondMeta)
   never yields a slot that fails Validate; a change of one byte of a valid header is caught, because FNV-32a tells
   apart inputs that differ in one byte (Fnv.v); the codec round-trips, so a finalized header validates. *)
From VF Require Import Meta BytesProofs Fnv.
From Coq Require Import Lia ZifyBool ZifyNat.

Definition txid_of (s : list Z) : Z := h_txid (decode_header s).

Lemma choose_spec s0 s1 :
  choose s0 s1 =
  match valid_slot s0, valid_slot s1 with
  | false, false => SelErr
  | true, false => SelOk 0 (txid_of s0)
  | false, true => SelOk 1 (txid_of s1)
  | true, true =>
      if txid_newer (txid_of s0) (txid_of s1) then SelOk 0 (txid_of s0) else SelOk 1 (txid_of s1)
  end.
Proof. reflexivity. Qed.

Lemma choose_never_invalid s0 s1 a t :
  choose s0 s1 = SelOk a t ->
  (a = 0 /\ valid_slot s0 = true /\ t = txid_of s0) \/ (a = 1 /\ valid_slot s1 = true /\ t = txid_of s1).
Proof.
  rewrite choose_spec.
  destruct (valid_slot s0) eqn:V0, (valid_slot s1) eqn:V1; try discriminate.
  - destruct (txid_newer _ _); intros [= <- <-]; auto.
  - intros [= <- <-]; auto.
  - intros [= <- <-]; auto.
Qed.

Lemma choose_fallback_1 s0 s1 :
  valid_slot s0 = false -> valid_slot s1 = true -> choose s0 s1 = SelOk 1 (txid_of s1).
Proof. intros V0 V1. rewrite choose_spec, V0, V1. reflexivity. Qed.

Lemma choose_fallback_0 s0 s1 :
  valid_slot s0 = true -> valid_slot s1 = false -> choose s0 s1 = SelOk 0 (txid_of s0).
Proof. intros V0 V1. rewrite choose_spec, V0, V1. reflexivity. Qed.

Lemma choose_both_invalid s0 s1 :
  valid_slot s0 = false -> valid_slot s1 = false -> choose s0 s1 = SelErr.
Proof. intros V0 V1. rewrite choose_spec, V0, V1. reflexivity. Qed.

(* the later commit wins, also across the 2^64 wrap-around of the txid: t + k is newer than t for 0 < k < 2^63,
   whatever t is *)
Lemma txid_newer_later t k : 0 < k < 2^63 ->
  txid_newer ((t + k) mod 2^64) t = true /\ txid_newer t ((t + k) mod 2^64) = false.
Proof.
  intros Hk. unfold txid_newer. rewrite Zminus_mod_idemp_l, Zminus_mod_idemp_r.
  replace (t + k - t) with k by lia. replace (t - (t + k)) with (- k) by lia.
  rewrite Z.mod_small, Z.mod_opp_l_nz; rewrite ?Z.mod_small; lia.
Qed.

Lemma choose_newer_wins_1 s0 s1 k :
  valid_slot s0 = true -> valid_slot s1 = true ->
  0 <= txid_of s0 < 2^64 -> 0 < k < 2^63 -> txid_of s1 = (txid_of s0 + k) mod 2^64 ->
  choose s0 s1 = SelOk 1 (txid_of s1).
Proof.
  intros V0 V1 _ Hk E. rewrite choose_spec, V0, V1, E, (proj2 (txid_newer_later _ k Hk)). reflexivity.
Qed.

Lemma choose_newer_wins_0 s0 s1 k :
  valid_slot s0 = true -> valid_slot s1 = true ->
  0 <= txid_of s1 < 2^64 -> 0 < k < 2^63 -> txid_of s0 = (txid_of s1 + k) mod 2^64 ->
  choose s0 s1 = SelOk 0 (txid_of s0).
Proof.
  intros V0 V1 _ Hk E. rewrite choose_spec, V0, V1, E, (proj1 (txid_newer_later _ k Hk)). reflexivity.
Qed.

(* two intact headers with the same txid describe the same commit: one of them is selected (no panic) *)
Lemma choose_equal_txid s0 s1 :
  valid_slot s0 = true -> valid_slot s1 = true -> txid_of s0 = txid_of s1 -> choose s0 s1 = SelOk 1 (txid_of s1).
Proof.
  intros V0 V1 E. rewrite choose_spec, V0, V1, E. unfold txid_newer.
  rewrite Z.sub_diag. reflexivity.
Qed.

Definition good_at (s : list Z) (off : Z) : bool := valid_slot s && (h_pageSize (decode_header s) =? off).

(* the search tries the offsets off 0, off 1 = 2 * off 0, ... and returns the first slot that is good where it lies *)
Lemma find_second_finds rd s1 : forall k fuel (off : nat -> Z),
  (forall j, off (S j) = 2 * off j) -> (k < fuel)%nat -> (forall j, (j <= k)%nat -> off j < 2^32) ->
  (forall j, (j < k)%nat -> exists s, rd (off j) = RdOk s /\ good_at s (off j) = false) ->
  rd (off k) = RdOk s1 -> good_at s1 (off k) = true ->
  find_second rd fuel (off 0%nat) = Some (Some s1).
Proof.
  induction k as [|k IH]; intros fuel off Hdbl Hf Hlt Hbad Hrd Hgood; (destruct fuel as [|fuel]; [inversion Hf|]);
    cbn [find_second]; rewrite (proj2 (Z.leb_gt _ _) (Hlt 0%nat (Nat.le_0_l _))).
  - rewrite Hrd. fold (good_at s1 (off 0%nat)). rewrite Hgood. reflexivity.
  - destruct (Hbad 0%nat (Nat.lt_0_succ k)) as (s & Hs & Hb). rewrite Hs. fold (good_at s (off 0%nat)). rewrite Hb, <- Hdbl.
    apply (IH fuel (fun j => off (S j))); try assumption.
    + intros j. apply Hdbl.
    + apply Nat.succ_lt_mono, Hf.
    + intros j Hj. apply Hlt, le_n_S, Hj.
    + intros j Hj. apply Hbad. apply Nat.succ_lt_mono in Hj. exact Hj.
Qed.

Lemma find_second_sound rd : forall fuel sz s,
  find_second rd fuel sz = Some (Some s) -> valid_slot s = true /\ exists off, rd off = RdOk s.
Proof.
  induction fuel as [|fuel IH]; intros sz s; cbn [find_second]; [discriminate|].
  destruct (2 ^ 32 <=? sz); [discriminate|].
  destruct (rd sz) as [| |s'] eqn:R; try discriminate.
  destruct (valid_slot s' && _) eqn:G; [|apply IH].
  intros [= <-]. apply andb_prop in G as [G _]. eauto.
Qed.

Lemma read_with_never_invalid rd a t :
  read_valid_meta_with rd = Some (SelOk a t) ->
  exists off s, (a = 0 \/ a = 1) /\ rd off = RdOk s /\ valid_slot s = true /\ t = txid_of s.
Proof.
  unfold read_valid_meta_with.
  destruct (rd 0) as [| |s0] eqn:R0; try discriminate.
  destruct (valid_slot s0) eqn:V0.
  - destruct (rd (h_pageSize (decode_header s0))) as [| |s1] eqn:R1; try discriminate.
    intros [= H]. apply choose_never_invalid in H as [(-> & V & ->)|(-> & V & ->)].
    + exists 0, s0. auto.
    + exists (h_pageSize (decode_header s0)), s1. auto.
  - destruct (find_second rd 40 minPageSize) as [[s1|]|] eqn:F; try discriminate.
    intros [= <- <-]. destruct (find_second_sound _ _ _ _ F) as [V1 [off Hoff]]. exists off, s1. auto.
Qed.

(* slot 0 damaged in any way, also in its page size field, which is what locates slot 1: the intact slot 1 is found.
   findSecondMeta tries the page sizes minPageSize * 2^k up to math.MaxUint32; the largest is 1024 * 2^21 = 2^31. *)
Lemma damaged_slot0_falls_back rd s0 s1 k :
  rd 0 = RdOk s0 -> valid_slot s0 = false ->
  (k <= 21)%nat ->
  (forall j, (j < k)%nat -> exists s, rd (minPageSize * 2 ^ Z.of_nat j) = RdOk s /\ good_at s (minPageSize * 2 ^ Z.of_nat j) = false) ->
  rd (minPageSize * 2 ^ Z.of_nat k) = RdOk s1 -> good_at s1 (minPageSize * 2 ^ Z.of_nat k) = true ->
  read_valid_meta_with rd = Some (SelOk 1 (txid_of s1)).
Proof.
  intros R0 V0 Hk Hbad R1 G1. unfold read_valid_meta_with. rewrite R0, V0.
  enough (F : find_second rd 40 minPageSize = Some (Some s1)) by (rewrite F; reflexivity).
  apply (find_second_finds rd s1 k 40 (fun j => minPageSize * 2 ^ Z.of_nat j)); [|lia| |exact Hbad|exact R1|exact G1].
  - intros j. rewrite Nat2Z.inj_succ, Z.pow_succ_r by apply Nat2Z.is_nonneg. ring.
  - intros j Hj. assert (2 ^ Z.of_nat j <= 2 ^ 21) by (apply Z.pow_le_mono_r; lia). change minPageSize with 1024. lia.
Qed.

Lemma intact_slot0_damaged_slot1 rd s0 s1 :
  rd 0 = RdOk s0 -> valid_slot s0 = true ->
  rd (h_pageSize (decode_header s0)) = RdOk s1 -> valid_slot s1 = false ->
  read_valid_meta_with rd = Some (SelOk 0 (txid_of s0)).
Proof.
  intros R0 V0 R1 V1. unfold read_valid_meta_with. rewrite R0, V0, R1.
  rewrite choose_fallback_0; auto.
Qed.

Lemma find_second_answers rd : (forall off, rd off <> RdMissing) -> forall fuel sz, find_second rd fuel sz <> None.
Proof.
  intros Hnm. induction fuel as [|fuel IH]; intros sz; cbn [find_second]; [discriminate|].
  destruct (2 ^ 32 <=? sz); [discriminate|]. destruct (rd sz) as [| |s] eqn:R; [discriminate|destruct (Hnm _ R)|].
  destruct (valid_slot s && _); [discriminate | apply IH].
Qed.

Lemma both_damaged_error rd s0 :
  rd 0 = RdOk s0 -> valid_slot s0 = false ->
  (forall off s, rd off = RdOk s -> valid_slot s = false) ->
  (forall off, rd off <> RdMissing) ->
  read_valid_meta_with rd = Some SelErr.
Proof.
  intros R0 V0 Hall Hnm. unfold read_valid_meta_with. rewrite R0, V0.
  destruct (find_second rd 40 minPageSize) as [[s1|]|] eqn:F; [|reflexivity|destruct (find_second_answers rd Hnm _ _ F)].
  destruct (find_second_sound _ _ _ _ F) as [V1 [off Hoff]]. rewrite (Hall _ _ Hoff) in V1. discriminate.
Qed.

Definition csum_off : nat := nat_of off_checksum.

Lemma zero_page_invalid k : magic <> 0 -> valid_slot (zeros k) = false.
Proof.
  intros Hm. unfold valid_slot. cbn [decode_header h_magic].
  rewrite get_le_zeros. replace (0 =? magic) with false by lia. reflexivity.
Qed.

Lemma valid_slot_csum l : valid_slot l = true -> get_le csum_off 4 l = checksum_of l.
Proof. unfold valid_slot. cbn [decode_header h_checksum]. intros [_ H%Z.eqb_eq]%andb_prop. exact H. Qed.

Lemma invalid_if_csum_differs l : get_le csum_off 4 l <> checksum_of l -> valid_slot l = false.
Proof. intros H%Z.eqb_neq. unfold valid_slot. cbn [decode_header h_checksum]. fold csum_off. rewrite H. apply andb_false_r. Qed.

Theorem single_byte_damage pre b b' post :
  bytes (pre ++ b :: post) -> 0 <= b' < 256 -> b <> b' ->
  length (pre ++ b :: post) = (csum_off + 4)%nat ->
  valid_slot (pre ++ b :: post) = true -> valid_slot (pre ++ b' :: post) = false.
Proof.
  intros Hb Hb' Hne Hlen Hv. apply invalid_if_csum_differs. apply valid_slot_csum in Hv.
  unfold get_le, slice, checksum_of in *. fold csum_off in *.
  apply Forall_app in Hb as [Hpre [Hbb Hpost]%Forall_cons_iff].
  destruct (Nat.lt_ge_cases (length pre) csum_off) as [Hlt|Hge].
  - (* in the hashed area: the stored checksum stays, the computed one changes *)
    rewrite skipn_mid_lt, firstn_mid_lt in * by exact Hlt. rewrite Hv.
    apply fnv_single_byte; auto using fnv_offset_range. apply Forall_firstn, Hpost.
  - (* in the checksum field: the computed checksum stays, the stored bytes change *)
    rewrite firstn_app_le, skipn_app_le in * by exact Hge. rewrite <- Hv. intros E.
    assert (L : forall x, length (skipn csum_off pre ++ x :: post) = 4%nat)
      by (intros x; rewrite app_length, skipn_length in *; cbn [length] in *; lia).
    rewrite !firstn_all2 in E by (rewrite L; reflexivity).
    apply le_decode_inj, app_inv_head in E; [congruence| | |rewrite !L; reflexivity];
      (apply bytes_app; [apply Forall_skipn, Hpre | constructor; assumption]).
Qed.

Record header_ok (h : header) : Prop := {
  ok_magic : 0 <= h_magic h < 2^32; ok_version : 0 <= h_version h < 2^32;
  ok_pageSize : 0 <= h_pageSize h < 2^32; ok_maxSize : 0 <= h_maxSize h < 2^64;
  ok_flags : 0 <= h_flags h < 2^32; ok_root : 0 <= h_root h < 2^64;
  ok_txid : 0 <= h_txid h < 2^64; ok_freelist : 0 <= h_freelist h < 2^64;
  ok_wal : 0 <= h_wal h < 2^64; ok_dataEnd : 0 <= h_dataEnd h < 2^64;
  ok_metaEnd : 0 <= h_metaEnd h < 2^64; ok_metaTotal : 0 <= h_metaTotal h < 2^64 }.

(* A header is a sequence of little-endian fields, given as (width, value): field k sits at the sum of the widths
   before it and decodes to its value. *)
Fixpoint enc_fields (fs : list (nat * Z)) : list Z :=
  match fs with [] => [] | (n, v) :: r => le_encode n v ++ enc_fields r end.
Fixpoint field_off (fs : list (nat * Z)) (k : nat) : nat :=
  match k, fs with S k', (n, _) :: r => n + field_off r k' | _, _ => 0 end.

Lemma enc_fields_app a b : enc_fields (a ++ b) = enc_fields a ++ enc_fields b.
Proof. induction a as [|[n v] a IH]; cbn [enc_fields app]; [|rewrite IH, app_assoc]; reflexivity. Qed.

Lemma enc_fields_length fs : length (enc_fields fs) = field_off fs (length fs).
Proof. induction fs as [|[n v] fs IH]; cbn [enc_fields field_off length]; [|rewrite app_length, le_encode_length, IH]; reflexivity. Qed.

Lemma enc_fields_bytes fs : bytes (enc_fields fs).
Proof. induction fs as [|[n v] fs IH]; [constructor | apply bytes_app; [apply le_encode_bytes | exact IH]]. Qed.

Lemma get_le_field : forall fs k n v, nth_error fs k = Some (n, v) -> 0 <= v < 256 ^ Z.of_nat n ->
  get_le (field_off fs k) n (enc_fields fs) = v.
Proof.
  induction fs as [|[m w] fs IH]; intros [|k] n v E Hv; try discriminate; cbn [enc_fields field_off].
  - injection E as -> ->. rewrite get_le_0_app_dec by apply le_encode_length. apply le_decode_encode, Hv.
  - rewrite get_le_skip with (n := m) by (apply le_encode_length || lia).
    replace (m + field_off fs k - m)%nat with (field_off fs k) by lia. apply IH; assumption.
Qed.

Definition body_fields (h : header) : list (nat * Z) :=
  [(4, h_magic h); (4, h_version h); (4, h_pageSize h); (8, h_maxSize h); (4, h_flags h); (8, h_root h);
   (8, h_txid h); (8, h_freelist h); (8, h_wal h); (8, h_dataEnd h); (8, h_metaEnd h); (8, h_metaTotal h)]%nat.
Definition header_fields (h : header) : list (nat * Z) := body_fields h ++ [(4%nat, checksum_of (encode_body h))].

Lemma encode_body_fields h : encode_body h = enc_fields (body_fields h).
Proof. unfold encode_body. cbn [enc_fields body_fields]. rewrite app_nil_r. reflexivity. Qed.

Lemma encode_header_fields h : encode_header h = enc_fields (header_fields h).
Proof. unfold encode_header, header_fields. rewrite enc_fields_app, <- encode_body_fields. cbn [enc_fields]. rewrite app_nil_r. reflexivity. Qed.

Lemma encode_body_length h : length (encode_body h) = 80%nat.
Proof. rewrite encode_body_fields. exact (enc_fields_length (body_fields h)). Qed.

Lemma encode_header_length h : length (encode_header h) = 84%nat.
Proof. rewrite encode_header_fields. exact (enc_fields_length (header_fields h)). Qed.

Lemma encode_header_bytes h : bytes (encode_header h).
Proof. rewrite encode_header_fields. apply enc_fields_bytes. Qed.

Lemma checksum_of_encode h : checksum_of (encode_header h) = checksum_of (encode_body h).
Proof.
  unfold checksum_of, encode_header.
  change (nat_of off_checksum) with 80%nat. rewrite <- (encode_body_length h).
  rewrite firstn_app, Nat.sub_diag, firstn_all. cbn [firstn]. rewrite app_nil_r. reflexivity.
Qed.

Lemma checksum_range l : 0 <= checksum_of l < 2^32.
Proof. apply fnv_range, fnv_offset_range. Qed.

Theorem header_roundtrip h : header_ok h ->
  let h' := decode_header (encode_header h) in
  h_magic h' = h_magic h /\ h_version h' = h_version h /\ h_pageSize h' = h_pageSize h /\
  h_maxSize h' = h_maxSize h /\ h_flags h' = h_flags h /\ h_root h' = h_root h /\
  h_txid h' = h_txid h /\ h_freelist h' = h_freelist h /\ h_wal h' = h_wal h /\
  h_dataEnd h' = h_dataEnd h /\ h_metaEnd h' = h_metaEnd h /\ h_metaTotal h' = h_metaTotal h.
Proof.
  intros [? ? ? ? ? ? ? ? ? ? ? ?]. cbv zeta. rewrite encode_header_fields.
  pose proof (get_le_field (header_fields h)) as F.
  repeat split; [apply (F 0%nat) | apply (F 1%nat) | apply (F 2%nat) | apply (F 3%nat) | apply (F 4%nat) | apply (F 5%nat)
    | apply (F 6%nat) | apply (F 7%nat) | apply (F 8%nat) | apply (F 9%nat) | apply (F 10%nat) | apply (F 11%nat)];
    (reflexivity || assumption).
Qed.

Lemma checksum_roundtrip h : h_checksum (decode_header (encode_header h)) = checksum_of (encode_body h).
Proof.
  rewrite encode_header_fields. apply (get_le_field (header_fields h) 12); [reflexivity | apply checksum_range].
Qed.

Theorem finalized_header_valid h : header_ok h -> h_magic h = magic -> h_version h = version ->
  valid_slot (encode_header h) = true.
Proof.
  intros Hok Hm Hv. unfold valid_slot.
  destruct (header_roundtrip h Hok) as (-> & -> & _).
  rewrite checksum_roundtrip, checksum_of_encode, Hm, Hv, !Z.eqb_refl. reflexivity.
Qed.
