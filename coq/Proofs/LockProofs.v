(* Interleaving semantics of any number of threads over the file lock, and its invariants. *)
From VF Require Import Lock.
From Coq Require Import Lia ZifyBool.

(* relational presentation of thread_step, convenient for inversion *)
Inductive tstep : lk -> nat -> pc -> lk -> nat -> pc -> Prop :=
| r_begin l v : pending l = false -> tstep l v R0 {| shared := S (shared l); pending := pending l; reserved := reserved l |} v (R1 v)
| r_read l v w : tstep l v (R1 w) l v (R1 w)
| r_close l v w n : shared l = S n -> tstep l v (R1 w) {| shared := n; pending := pending l; reserved := reserved l |} v R2
| w_begin l v : reserved l = false -> tstep l v W0 {| shared := shared l; pending := pending l; reserved := true |} v W1
| w_work l v : tstep l v W1 l v W1
| w_rollback l v : reserved l = true -> tstep l v W1 {| shared := shared l; pending := pending l; reserved := false |} v Wd
| w_pending l v : tstep l v W1 {| shared := shared l; pending := true; reserved := reserved l |} v W2
| w_io l v : tstep l v W2 l v W2
| w_io3 l v : tstep l v W3 l v W3
| w_fail l v : tstep l v W2 {| shared := shared l; pending := false; reserved := reserved l |} v W5
| w_excl l v : shared l = 0 -> tstep l v W2 l v W3
| w_switch l v : tstep l v W3 l (S v) W4
| w_noswitch l v : tstep l v W3 l v W4
| w_unpend l v : tstep l v W4 {| shared := shared l; pending := false; reserved := reserved l |} v W5
| w_release l v : reserved l = true -> tstep l v W5 {| shared := shared l; pending := pending l; reserved := false |} v Wd.

Lemma thread_step_sound l v p lab l' v' p' :
  thread_step l v p lab = Some (l', v', p') -> tstep l v p l' v' p'.
Proof.
  destruct l as [s pd rs], p, lab; cbn; try discriminate.
  (* the steps with a guard test one field of the lock: Begin and Close of a reader; Begin, Rollback, Exclusive.Lock
     and Release of a writer *)
  all: try match goal with |- context [match ?g with _ => _ end] => destruct g end;
    try discriminate; intros [= <- <- <-]; constructor; reflexivity.
Qed.

Lemma thread_step_complete l v p l' v' p' :
  tstep l v p l' v' p' -> exists lab, thread_step l v p lab = Some (l', v', p').
Proof.
  intros H. destruct H;
    [exists LBegin | exists LWork | exists LClose | exists LWBegin | exists LWWork | exists LRollback | exists LPend | exists LIO
    | exists LIO | exists LFail | exists LExcl | exists LSwitch | exists LNoSwitch | exists LUnpend | exists LRelease];
    cbn; rewrite ?H; reflexivity.
Qed.

Definition cfg := (lk * nat * list pc)%type.

Fixpoint upd (ts : list pc) (i : nat) (p : pc) : list pc :=
  match ts, i with
  | [], _ => []
  | _ :: r, 0 => p :: r
  | x :: r, S j => x :: upd r j p
  end.

Inductive step : cfg -> cfg -> Prop :=
| step_i l v ts i p l' v' p' : nth_error ts i = Some p -> tstep l v p l' v' p' -> step (l, v, ts) (l', v', upd ts i p').

Inductive reach (c0 : cfg) : cfg -> Prop :=
| reach_refl : reach c0 c0
| reach_step c c' : reach c0 c -> step c c' -> reach c0 c'.

Definition isR1 p := match p with R1 _ => true | _ => false end.
Definition isW p := match p with W1 | W2 | W3 | W4 | W5 => true | _ => false end.   (* holds reserved *)
Definition isP p := match p with W2 | W3 | W4 => true | _ => false end.             (* holds pending *)
Definition isX p := match p with W3 | W4 => true | _ => false end.                  (* past exclusive *)
Definition isDone p := match p with R2 | Wd => true | _ => false end.
Definition isInit p := match p with R0 | W0 => true | _ => false end.

Fixpoint cnt (f : pc -> bool) (ts : list pc) : nat :=
  match ts with [] => 0 | x :: r => (if f x then 1 else 0) + cnt f r end.

Lemma cnt_upd f ts : forall i p p', nth_error ts i = Some p ->
  cnt f (upd ts i p') + Nat.b2n (f p) = cnt f ts + Nat.b2n (f p').
Proof.
  induction ts as [|x r IH]; intros [|j] p p' H; try discriminate; cbn [cnt upd]; fold (Nat.b2n (f x)).
  - injection H as ->. fold (Nat.b2n (f p')). lia.
  - rewrite <- !Nat.add_assoc, (IH j p p' H). reflexivity.
Qed.

Lemma cnt_pos f ts : 0 < cnt f ts -> exists i p, nth_error ts i = Some p /\ f p = true.
Proof.
  induction ts as [|x r IH]; simpl; intros H; [lia|].
  destruct (f x) eqn:E.
  - exists 0, x. auto.
  - destruct IH as [i [p [Hi Hp]]]; [lia|]. exists (S i), p. auto.
Qed.

Lemma cnt_in f ts i p : nth_error ts i = Some p -> f p = true -> 0 < cnt f ts.
Proof.
  revert i; induction ts as [|x r IH]; intros [|j] H Hf; simpl in *; try discriminate.
  - inversion H; subst. rewrite Hf. lia.
  - specialize (IH j H Hf). lia.
Qed.

Lemma cnt_zero f ts i p : cnt f ts = 0 -> nth_error ts i = Some p -> f p = false.
Proof. intros H0 H. destruct (f p) eqn:E; [|reflexivity]. apply (cnt_in _ _ _ _ H) in E. rewrite H0 in E. inversion E. Qed.

(* The lock says who is where: Shared counts the active readers; Reserved is held by the writers, so there is one at
   most; Pending is up while that writer is between Pending.Lock and Pending.Unlock; no reader is active beside a
   thread past Exclusive; every active reader holds the committed version. *)
Record Inv (c : cfg) : Prop := {
  i_shared : shared (fst (fst c)) = cnt isR1 (snd c);
  i_res : Nat.b2n (reserved (fst (fst c))) = cnt isW (snd c);
  i_pend : pending (fst (fst c)) = (0 <? cnt isP (snd c));
  i_x : 0 < cnt isX (snd c) -> cnt isR1 (snd c) = 0;
  i_ver : forall i w, nth_error (snd c) i = Some (R1 w) -> w = snd (fst c) }.

Lemma isP_isW p : isP p = true -> isW p = true. Proof. destruct p; simpl; congruence. Qed.
Lemma isX_isP p : isX p = true -> isP p = true. Proof. destruct p; simpl; congruence. Qed.

Lemma cnt_le f g ts : (forall p, f p = true -> g p = true) -> cnt f ts <= cnt g ts.
Proof.
  intros H. induction ts as [|x r IH]; simpl; [lia|].
  destruct (f x) eqn:E; [rewrite (H _ E); lia|destruct (g x); lia].
Qed.

Lemma nth_upd_same ts : forall i p p', nth_error ts i = Some p -> nth_error (upd ts i p') i = Some p'.
Proof. induction ts as [|x r IH]; intros [|j] p p' H; simpl in *; try discriminate; eauto. Qed.
Lemma nth_upd_other ts : forall i j p', i <> j -> nth_error (upd ts i p') j = nth_error ts j.
Proof. induction ts as [|x r IH]; intros [|i] [|j] p' H; simpl in *; try reflexivity; try lia. apply IH. lia. Qed.

Lemma upd_same ts : forall i p, nth_error ts i = Some p -> upd ts i p = ts.
Proof. induction ts as [|x r IH]; intros [|j] p H; try discriminate H; cbn in *; [injection H as -> | rewrite (IH j p H)]; reflexivity. Qed.

Lemma upd_upd ts : forall i p p', upd (upd ts i p) i p' = upd ts i p'.
Proof. induction ts as [|x r IH]; intros [|j] p p'; cbn; [..|rewrite IH]; reflexivity. Qed.

Lemma isX_not_R1 p : isX p = true -> isR1 p = false. Proof. destruct p; simpl; congruence. Qed.

(* All that step_inv needs of a step, said through the classes (isR1, isW, isP, isX) of p and p' alone, so that the
   fifteen cases of tstep are gone through here only. *)
Lemma tstep_effect l v p l' v' p' : tstep l v p l' v' p' ->
  Nat.b2n (isR1 p) + shared l' = Nat.b2n (isR1 p') + shared l /\
  Nat.b2n (isW p) + Nat.b2n (reserved l') = Nat.b2n (isW p') + Nat.b2n (reserved l) /\
  pending l' = (if eqb (isP p) (isP p') then pending l else isP p') /\
  (isR1 p = false -> isR1 p' = true -> pending l = false) /\
  (isX p = false -> isX p' = true -> shared l = 0) /\
  (v' = v \/ isX p = true) /\
  (forall w, p' = R1 w -> w = v' \/ p = R1 w).
Proof.
  destruct 1; destruct l as [s pd rs]; cbn in *; subst; repeat split; auto; try discriminate; intros w0 [= <-]; auto.
Qed.

(* a counter and the lock field it explains, when one thread goes from class a to class b *)
Lemma count_step {s s' c c'} {a b : bool} :
  s = c -> c' + Nat.b2n a = c + Nat.b2n b -> Nat.b2n a + s' = Nat.b2n b + s -> s' = c'.
Proof. lia. Qed.

(* a flag that is up while some thread is in the class *)
Lemma flag_step {f f' : bool} {c c'} {a b : bool} :
  c <= 1 -> f = (0 <? c) -> c' + Nat.b2n a = c + Nat.b2n b -> f' = (if eqb a b then f else b) -> f' = (0 <? c').
Proof. destruct a, b; cbn [Nat.b2n eqb]; lia. Qed.

(* no reader beside a thread past Exclusive: it gets there only without readers, and a reader begins only without
   Pending, which is up while a thread is past Exclusive (cX <= cP) *)
Lemma excl_step {s} {pd : bool} {cR cR' cP cX cX'} {aR bR aX bX : bool} :
  s = cR -> pd = (0 <? cP) -> cX <= cP -> (0 < cX -> cR = 0) ->
  cR' + Nat.b2n aR = cR + Nat.b2n bR -> cX' + Nat.b2n aX = cX + Nat.b2n bX ->
  (aX = false -> bX = true -> s = 0) -> (bX = true -> bR = false) -> (aR = false -> bR = true -> pd = false) ->
  0 < cX' -> cR' = 0.
Proof. destruct aR, bR, aX, bX; cbn [Nat.b2n]; lia. Qed.

Lemma step_inv c c' : Inv c -> step c c' -> Inv c'.
Proof.
  intros [Hs Hr Hp Hx Hv] Hstep. destruct Hstep as [l v ts i p l' v' p' Hn Ht]. cbn [fst snd] in *.
  destruct (tstep_effect _ _ _ _ _ _ Ht) as (Es & Er & Ep & Gr & Gx & Ev & Ew).
  pose proof (fun f => cnt_upd f ts i p p' Hn) as C.
  assert (LP : cnt isP ts <= 1)
    by (rewrite (cnt_le isP isW ts isP_isW), <- Hr; destruct (reserved l); repeat constructor).
  constructor; cbn [fst snd].
  - exact (count_step Hs (C isR1) Es).
  - exact (count_step Hr (C isW) Er).
  - exact (flag_step LP Hp (C isP) Ep).
  - exact (excl_step Hs Hp (cnt_le isX isP ts isX_isP) Hx (C isR1) (C isX) Gx (isX_not_R1 p') Gr).
  - intros j w Hj. destruct (Nat.eq_dec i j) as [<-|Hne].
    + rewrite (nth_upd_same _ _ _ _ Hn) in Hj. injection Hj as Hj. destruct (Ew _ Hj) as [->| ->]; [reflexivity|].
      destruct Ev as [->|HX]; [eauto | discriminate HX].
    + rewrite nth_upd_other in Hj by exact Hne. destruct Ev as [->|HX]; [eauto|].
      pose proof (cnt_in isR1 ts j _ Hj eq_refl) as HR. rewrite (Hx (cnt_in isX ts i p Hn HX)) in HR. inversion HR.
Qed.

Definition init_ok (c : cfg) := fst (fst c) = {| shared := 0; pending := false; reserved := false |} /\
  Forall (fun p => isInit p = true) (snd c).

(* while every thread is before or after its transaction no counter of the invariant is up *)
Lemma quiet_counts ts : Forall (fun p => isDone p = true \/ isInit p = true) ts ->
  cnt isR1 ts = 0 /\ cnt isW ts = 0 /\ cnt isP ts = 0 /\ cnt isX ts = 0.
Proof.
  induction 1 as [|p ts Hp _ (IR & IW & IP & IX)]; simpl; [auto|]. rewrite IR, IW, IP, IX.
  destruct p, Hp as [H|H]; try discriminate H; auto.
Qed.

Lemma init_inv c : init_ok c -> Inv c.
Proof.
  destruct c as [[l v] ts]. intros [Hl Hts]. simpl in *. subst l.
  destruct (quiet_counts ts) as (ZR & ZW & ZP & ZX); [exact (Forall_impl _ (fun p => @or_intror _ _) Hts)|].
  constructor; simpl; rewrite ?ZR, ?ZW, ?ZP, ?ZX; auto.
  intros i w Hi. apply nth_error_In in Hi. rewrite Forall_forall in Hts. discriminate (Hts _ Hi).
Qed.

Theorem reach_inv c0 c : init_ok c0 -> reach c0 c -> Inv c.
Proof. intros H0 R. induction R; [apply init_inv; exact H0|eapply step_inv; eauto]. Qed.

Theorem one_writer c0 c : init_ok c0 -> reach c0 c -> cnt isW (snd c) <= 1.
Proof. intros H R. rewrite <- (i_res _ (reach_inv _ _ H R)). destruct (reserved _); repeat constructor. Qed.

Theorem switch_exclusive c0 c i : init_ok c0 -> reach c0 c -> nth_error (snd c) i = Some W3 ->
  cnt isR1 (snd c) = 0 /\ pending (fst (fst c)) = true.
Proof.
  intros H R Hi. pose proof (reach_inv _ _ H R) as I. split.
  - apply (i_x _ I). eapply cnt_in; eauto.
  - rewrite (i_pend _ I). apply Nat.ltb_lt. eapply cnt_in; eauto.
Qed.

Theorem reader_view_stable c0 c i w : init_ok c0 -> reach c0 c -> nth_error (snd c) i = Some (R1 w) -> w = snd (fst c).
Proof. intros H R Hi. eapply (i_ver _ (reach_inv _ _ H R)); eauto. Qed.

Theorem idle_when_quiescent c0 c : init_ok c0 -> reach c0 c ->
  Forall (fun p => isDone p = true \/ isInit p = true) (snd c) ->
  fst (fst c) = {| shared := 0; pending := false; reserved := false |}.
Proof.
  intros H R Hq. pose proof (reach_inv _ _ H R) as [Hs Hr Hp _ _]. destruct c as [[[s pd rs] v] ts]. simpl in *.
  destruct (quiet_counts ts Hq) as (ZR & ZW & ZP & _). rewrite ZR in Hs. rewrite ZW in Hr. rewrite ZP in Hp.
  destruct rs; [discriminate Hr|]. cbn in *. subst. reflexivity.
Qed.

Theorem no_deadlock c0 c : init_ok c0 -> reach c0 c ->
  (exists i p, nth_error (snd c) i = Some p /\ isDone p = false) -> exists c', step c c'.
Proof.
  intros H R (i & p & Hi & Hnd). destruct (reach_inv _ _ H R) as [_ Hr Hp _ _].
  destruct c as [[l v] ts]. cbn [fst snd] in *.
  (* an active reader can read and a writer can go on; without either the lock is idle and thread i can begin *)
  destruct (Nat.eq_0_gt_0_cases (cnt isR1 ts)) as [HR|HR].
  2:{ destruct (cnt_pos _ _ HR) as (j & q & Hj & Hq). destruct q; try discriminate Hq.
      eexists. exact (step_i _ _ _ _ _ _ _ _ Hj (r_read l v _)). }
  destruct (Nat.eq_0_gt_0_cases (cnt isW ts)) as [HW|HW].
  2:{ destruct (cnt_pos _ _ HW) as (j & q & Hj & Hq). rewrite <- Hr in HW. destruct (reserved l) eqn:Hres; [|inversion HW].
      destruct q; try discriminate Hq; eexists; eapply (step_i l v ts j _ _ _ _ Hj);
        [apply w_work | apply w_io | apply w_switch | apply w_unpend | apply w_release, Hres]. }
  pose proof (cnt_le isP isW ts isP_isW) as HP. rewrite HW in Hr, HP. apply Nat.le_0_r in HP. rewrite HP in Hp.
  destruct (reserved l) eqn:Hres; [discriminate Hr|].
  pose proof (cnt_zero _ _ _ _ HR Hi) as HnR. pose proof (cnt_zero _ _ _ _ HW Hi) as HnW.
  destruct p; try discriminate; eexists; eapply (step_i l v ts i _ _ _ _ Hi); [apply r_begin, Hp | apply w_begin, Hres].
Qed.

Lemma version_changes_only_at_switch c c' :
  step c c' -> snd (fst c') <> snd (fst c) ->
  exists i, nth_error (snd c) i = Some W3 /\ nth_error (snd c') i = Some W4 /\ snd (fst c') = S (snd (fst c)).
Proof.
  intros Hs Hne. destruct Hs as [l v ts i p l' v' p' Hn Ht]. cbn in *.
  destruct Ht; try contradiction.
  exists i. split; [exact Hn|]. split; [eapply nth_upd_same; eauto | reflexivity].
Qed.

Lemma reader_enabled_iff l v : (exists r, thread_step l v R0 LBegin = Some r) <-> pending l = false.
Proof.
  cbn. destruct (pending l); cbn; split; intros H.
  - destruct H as [r H]. discriminate.
  - discriminate.
  - reflexivity.
  - eexists. reflexivity.
Qed.

Lemma programs_release_everything v :
  run_labels lk_idle v R0 (prog_begin_readonly ++ [LWork] ++ prog_reader_close) = Some (lk_idle, v, R2) /\
  run_labels lk_idle v W0 (prog_begin ++ [LWWork] ++ prog_rollback) = Some (lk_idle, v, Wd) /\
  run_labels lk_idle v W0 (prog_begin ++ [LWWork] ++ prog_commit_ok) = Some (lk_idle, S v, Wd) /\
  run_labels lk_idle v W0 (prog_begin ++ [LWWork] ++ prog_commit_fail) = Some (lk_idle, v, Wd) /\
  run_labels lk_idle v W0 prog_init_tx_ok = Some (lk_idle, S v, Wd) /\
  run_labels lk_idle v W0 prog_init_tx_fail = Some (lk_idle, v, Wd) /\
  run_labels lk_idle v W0 prog_file_close = Some (lk_idle, v, Wd).
Proof. repeat split. Qed.

Lemma run_labels_reach c0 l v ts i p labs l' v' p' :
  reach c0 (l, v, ts) -> nth_error ts i = Some p ->
  run_labels l v p labs = Some (l', v', p') -> reach c0 (l', v', upd ts i p').
Proof.
  revert l v ts p. induction labs as [|lab labs IH]; intros l v ts p R Hn Hr; cbn in Hr.
  - injection Hr as <- <- <-. rewrite (upd_same _ _ _ Hn). exact R.
  - destruct (thread_step l v p lab) as [[[l1 v1] p1]|] eqn:E; [|discriminate].
    rewrite <- (upd_upd ts i p1). apply (IH l1 v1 _ p1); [|exact (nth_upd_same _ _ _ _ Hn)|exact Hr].
    exact (reach_step _ _ _ R (step_i _ _ _ _ _ _ _ _ Hn (thread_step_sound _ _ _ _ _ _ _ E))).
Qed.
