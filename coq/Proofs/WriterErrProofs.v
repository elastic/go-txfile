From VF Require Import WriterErr.
From Coq Require Import Lia.

(* One request: with the error flag set it is skipped, otherwise the disk call is attempted and fails as the plan
   says; afterwards the flag is set iff it was set or the call failed, except that a sync with the reset flag
   clears it. *)
Definition res_skip (op : wop) : wres := {| r_op := op; r_attempted := false; r_effective := false; r_reported_err := true |}.
Definition res_try (op : wop) (failed : bool) : wres := {| r_op := op; r_attempted := true; r_effective := negb failed; r_reported_err := failed |}.
Definition next_err (op : wop) (e : bool) : bool := match op with WSync true => false | _ => e end.

Lemma run_writer_cons plan op rest err k :
  run_writer plan (op :: rest) err k =
  let '(rs, e, k') := run_writer plan rest (next_err op (if err then true else plan k)) (if err then k else S k) in
  ((if err then res_skip op else res_try op (plan k)) :: rs, e, k').
Proof. destruct op, err; reflexivity. Qed.

Lemma run_writer_app plan a : forall b err k,
  run_writer plan (a ++ b) err k =
  let '(rs1, e1, k1) := run_writer plan a err k in
  let '(rs2, e2, k2) := run_writer plan b e1 k1 in (rs1 ++ rs2, e2, k2).
Proof.
  induction a as [|op a IH]; intros b err k; [cbn; destruct (run_writer plan b err k) as [[rs e] k']; reflexivity|].
  cbn [app]. rewrite !run_writer_cons, IH. destruct (run_writer plan a _ _) as [[rs1 e1] k1].
  destruct (run_writer plan b e1 k1) as [[rs2 e2] k2]. reflexivity.
Qed.

Lemma results_ok plan ops : forall err k,
  let '(rs, _, _) := run_writer plan ops err k in
  length rs = length ops /\ Forall (fun r => r_effective r = negb (r_reported_err r)) rs.
Proof.
  induction ops as [|op ops IH]; intros err k; [split; constructor|]. rewrite run_writer_cons.
  specialize (IH (next_err op (if err then true else plan k)) (if err then k else S k)).
  destruct (run_writer plan ops _ _) as [[rs e] k']. destruct IH as [L F].
  split; [cbn [length]; rewrite L; reflexivity | constructor; [destruct err; reflexivity | exact F]].
Qed.

Lemma no_error_all_effective rs : Forall (fun r => r_effective r = negb (r_reported_err r)) rs ->
  commit_reports_error rs = false <-> Forall (fun r => r_effective r = true) rs.
Proof.
  unfold commit_reports_error. induction 1 as [|r rs Hr _ IH]; cbn [existsb]; [split; constructor|].
  rewrite Forall_cons_iff, <- IH, Hr, orb_false_iff, negb_true_iff. reflexivity.
Qed.

Lemma next_err_no_reset op ops e : (forall r, In (WSync r) (op :: ops) -> r = false) -> next_err op e = e.
Proof. intros H. destruct op as [id|r]; [|rewrite (H r (or_introl eq_refl))]; reflexivity. Qed.

Lemma writes_no_sync pages r : In (WSync r) (map WWrite pages) -> r = false.
Proof. intros H. apply in_map_iff in H as (x & [=] & _). Qed.

Lemma err_no_reset plan ops : (forall r, In (WSync r) ops -> r = false) -> forall err k,
  let '(rs, e, _) := run_writer plan ops err k in e = err || existsb r_reported_err rs.
Proof.
  induction ops as [|op ops IH]; intros Hns err k; [cbn; rewrite orb_false_r; reflexivity|].
  rewrite run_writer_cons, (next_err_no_reset op ops _ Hns).
  specialize (IH (fun r H => Hns r (or_intror H)) (if err then true else plan k) (if err then k else S k)).
  destruct (run_writer plan ops _ _) as [[rs e] k']. rewrite IH. destruct err; reflexivity.
Qed.

(* k' = k: no disk call is attempted *)
Lemma sticky_no_calls plan : forall ops k,
  (forall r, In (WSync r) ops -> r = false) ->
  let '(rs, e, k') := run_writer plan ops true k in
  e = true /\ k' = k /\ Forall (fun r => r_attempted r = false /\ r_effective r = false /\ r_reported_err r = true) rs.
Proof.
  induction ops as [|op rest IH]; intros k Hns; [repeat split; constructor|].
  rewrite run_writer_cons, (next_err_no_reset op rest _ Hns).
  specialize (IH k (fun r H => Hns r (or_intror H))). destruct (run_writer plan rest true k) as [[rs e] k'].
  destruct IH as (He & Hk & Hf). split; [exact He|]. split; [exact Hk|]. constructor; [repeat split | exact Hf].
Qed.

Lemma writes_prefix plan : forall pages k,
  let '(rs, e, k') := run_writer plan (map WWrite pages) false k in
  (e = false -> Forall (fun r => r_effective r = true) rs /\ k' = (k + length pages)%nat) /\
  (e = true -> exists i, (i < length pages)%nat /\ plan (k + i)%nat = true).
Proof.
  induction pages as [|p pages IH]; intros k; cbn [map]; [cbn; split; [intros _; split; [constructor | lia] | discriminate]|].
  rewrite run_writer_cons. cbn [next_err]. destruct (plan k) eqn:Ep.
  - pose proof (sticky_no_calls plan (map WWrite pages) (S k) (writes_no_sync pages)) as Hs.
    destruct (run_writer plan (map WWrite pages) true (S k)) as [[rs e] k']. destruct Hs as (-> & _).
    split; [discriminate|]. intros _. exists 0%nat. rewrite Nat.add_0_r. split; [cbn; lia | exact Ep].
  - specialize (IH (S k)). destruct (run_writer plan (map WWrite pages) false (S k)) as [[rs e] k'].
    destruct IH as [H1 H2]. split; intros He.
    + destruct (H1 He) as [Hf ->]. split; [constructor; [reflexivity | exact Hf] | cbn; lia].
    + destruct (H2 He) as (i & Hi & Hp). exists (S i). rewrite Nat.add_succ_r. split; [cbn; lia | exact Hp].
Qed.

(* C08, the containment property of a commit: the header write (request number length pages + 1) takes effect only if
   every page write and the first sync took effect; the commit reports success only if every request took effect *)
Theorem header_only_after_everything plan pages hdr :
  let '(rs, e, _) := run_writer plan (commit_prog pages hdr) false 0 in
  e = false /\                                           (* the final sync resets the error: the next
                                                            transaction's writes are attempted again *)
  length rs = (length pages + 3)%nat /\
  (forall rh, nth_error rs (length pages + 1) = Some rh -> r_effective rh = true ->
      (forall i r, (i <= length pages)%nat -> nth_error rs i = Some r -> r_effective r = true)) /\
  (commit_reports_error rs = false -> Forall (fun r => r_effective r = true) rs).
Proof.
  pose proof (results_ok plan (commit_prog pages hdr) false 0) as HR. revert HR. unfold commit_prog.
  (* the page writes and the first sync, which never reset the flag; then the header write and the final sync *)
  change [WSync false; WWrite hdr; WSync true] with ([WSync false] ++ [WWrite hdr; WSync true]).
  rewrite app_assoc, run_writer_app. set (pre := map WWrite pages ++ [WSync false]).
  assert (Hpre : forall r, In (WSync r) pre -> r = false).
  { intros r H. apply in_app_or in H as [H|[[= <-]|[]]]; [exact (writes_no_sync pages r H) | reflexivity]. }
  pose proof (err_no_reset plan pre Hpre false 0) as He1. pose proof (results_ok plan pre false 0) as Hr1.
  destruct (run_writer plan pre false 0) as [[rs1 e1] k1]. destruct Hr1 as [L1 F1].
  unfold pre in L1. rewrite app_length, map_length in L1. cbn [length] in L1.
  rewrite !run_writer_cons. cbn [run_writer next_err]. rewrite !app_length. cbn [length].
  intros [L F]. split; [reflexivity|]. split; [lia|]. split; [|apply no_error_all_effective, F].
  intros rh Hh Eh. rewrite nth_error_app2, L1, Nat.sub_diag in Hh by lia. injection Hh as <-.
  destruct e1; [discriminate|]. symmetry in He1. apply (no_error_all_effective rs1 F1) in He1.
  intros i r Hi Hr. rewrite nth_error_app1 in Hr by lia. rewrite Forall_forall in He1. exact (He1 r (nth_error_In _ _ Hr)).
Qed.

Lemma run_writer_clean plan ops : forall k,
  (forall i, (k <= i)%nat -> plan i = false) ->
  let '(rs, _, _) := run_writer plan ops false k in Forall (fun r => r_effective r = true) rs.
Proof.
  induction ops as [|op ops IH]; intros k Hp; [constructor|]. rewrite run_writer_cons, (Hp k (le_n k)).
  replace (next_err op false) with false by (destruct op as [id|[]]; reflexivity).
  specialize (IH (S k) (fun i Hi => Hp i (Nat.lt_le_incl _ _ Hi))). destruct (run_writer plan ops false (S k)) as [[rs e] k'].
  constructor; [reflexivity | exact IH].
Qed.

(* D16, with the repair (Rollback / Close issue the reset): whatever failed while the aborted transaction's writes
   were executed, the writer is clean afterwards, and a following commit during which no call fails reports success
   with every request effective *)
Theorem abort_fixed_then_commit : forall plan flushed pages hdr,
  let '(_, e, k) := run_abort true plan flushed false 0 in
  e = false /\
  ((forall i, (k <= i)%nat -> plan i = false) ->
   let '(rs, e', _) := run_writer plan (commit_prog pages hdr) e k in
   commit_reports_error rs = false /\ Forall (fun r => r_effective r = true) rs).
Proof.
  intros plan flushed pages hdr. unfold run_abort.
  (* the page writes never reset the flag: it is set afterwards iff one of them reported an error, and then the
     sync with the reset flag is issued, which is skipped and clears it *)
  pose proof (err_no_reset plan (abort_prog flushed) (writes_no_sync flushed) false 0%nat) as He.
  destruct (run_writer plan (abort_prog flushed) false 0) as [[rs e] k]. cbn [orb andb] in *. rewrite <- He.
  assert (Hgoal : (forall i, (k <= i)%nat -> plan i = false) ->
            let '(rs', _, _) := run_writer plan (commit_prog pages hdr) false k in
            commit_reports_error rs' = false /\ Forall (fun r => r_effective r = true) rs').
  { intros Hp. pose proof (run_writer_clean plan (commit_prog pages hdr) k Hp) as Hc.
    pose proof (results_ok plan (commit_prog pages hdr) false k) as Hr.
    destruct (run_writer plan (commit_prog pages hdr) false k) as [[rs' e'] k'].
    split; [apply (no_error_all_effective rs' (proj2 Hr)) |]; exact Hc. }
  destruct e; cbn [run_writer]; (split; [reflexivity | exact Hgoal]).
Qed.

(* without it (the code before the repair): the next commit fails although none of its calls does *)
Theorem abort_unfixed_refuted : exists plan flushed pages hdr,
  let '(_, e, k) := run_abort false plan flushed false 0 in
  (forall i, (k <= i)%nat -> plan i = false) /\
  let '(rs, _, _) := run_writer plan (commit_prog pages hdr) e k in
  commit_reports_error rs = true /\ Forall (fun r => r_attempted r = false) (firstn (length pages + 2) rs).
Proof.
  exists (fun i => Nat.eqb i 0), [3], [5; 6], 1. cbn. split.
  - intros i Hi. destruct i; [lia | reflexivity].
  - split; [reflexivity | repeat constructor].
Qed.
