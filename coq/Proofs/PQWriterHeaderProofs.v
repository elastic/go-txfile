(* The page headers the queue writer maintains (first / last event id, offset of the first event header in the page)
   are a function of the completed events alone: they are what the ACK model (Model/PQAck.v) assumes "as the writer
   maintains it" - off = 0 iff no event starts in the page, otherwise first = id0 + (events starting in earlier pages),
   last = id0 + (events starting up to this page) - 1 - for every page the writer created in this session, whatever
   the Write chunks were and whatever the flushes did. *)
From VF Require Import PQ PQWriter BytesProofs PQProofs PQAck PQAckProofs PQLayoutProofs PQWriterBase PQWriterProofs.
From Coq Require Import Lia.

Definition hcore (p : wpage) : nat * Z * Z := (wp_off p, wp_first p, wp_last p).
Definition hcores (l : list wpage) := map hcore l.

Definition hdr_spec (endId : Z) (ps : list nat) (j : nat) (c : nat * Z * Z) : Prop :=
  (starts_in ps j = false -> fst (fst c) = 0%nat) /\
  (starts_in ps j = true -> fst (fst c) <> 0%nat /\ snd (fst c) = (endId + Z.of_nat (cnt_lt ps j))%Z /\
                            snd c = (endId + Z.of_nat (cnt_le ps j) - 1)%Z).

Definition HPL (H : list (nat * Z * Z)) (endId : Z) (ps : list nat) : Prop :=
  forall j c, (1 <= j)%nat -> nth_error H j = Some c -> hdr_spec endId ps j c.

(* fresh pages behind the last page an event starts in *)
Lemma HPL_fresh H endId ps m : HPL H endId ps -> (forall y, In y ps -> (y < length H)%nat) ->
  HPL (H ++ repeat (hcore fresh_wpage) m) endId ps.
Proof.
  intros HH Hb j c Hj Hn. destruct (Nat.lt_ge_cases j (length H)) as [Hlt|Hge].
  - rewrite nth_error_app1 in Hn by exact Hlt. exact (HH j c Hj Hn).
  - rewrite nth_error_app2 in Hn by exact Hge. apply nth_error_In, repeat_spec in Hn. subst c.
    split; [intros _; reflexivity|]. intros Hs. apply starts_in_spec in Hs. specialize (Hb j Hs). lia.
Qed.

Definition hupd (off : nat) (id : Z) (c : nat * Z * Z) : nat * Z * Z :=
  if (fst (fst c) =? 0)%nat then (off, id, id) else (fst (fst c), snd (fst c), id).

(* the next event starts in page J, no earlier one behind it *)
Lemma HPL_next H endId ps J off : HPL H endId ps -> off <> 0%nat -> (forall y, In y ps -> (y <= J)%nat) ->
  HPL (upd_nth J (hupd off (endId + Z.of_nat (length ps))%Z) H) endId (ps ++ [J]).
Proof.
  intros HH Hoff Hb j c Hj Hn. rewrite nth_error_upd_nth in Hn. unfold hdr_spec.
  rewrite starts_in_snoc, cnt_lt_snoc, cnt_le_snoc.
  destruct (Nat.eqb_spec j J) as [->|Hne].
  - destruct (nth_error H J) as [c0|] eqn:E0; [|discriminate]. injection Hn as <-.
    rewrite orb_true_r, Nat.ltb_irrefl, Nat.leb_refl, (cnt_le_all ps J Hb). destruct (HH J c0 Hj E0) as [H0 H1].
    split; [discriminate|]. intros _. unfold hupd.
    destruct (Nat.eqb_spec (fst (fst c0)) 0) as [Hz|Hnz]; cbn [fst snd].
    + (* first event in this page: every earlier event starts in an earlier page *)
      rewrite (cnt_lt_all ps J); [split; [exact Hoff | clear; split; lia]|].
      intros y Hy. specialize (Hb y Hy). destruct (Nat.eq_dec y J) as [->|]; [|clear - Hb n; lia].
      apply starts_in_spec in Hy. destruct (H1 Hy) as [Hnz _]. contradiction.
    + destruct (starts_in ps J); [|destruct (Hnz (H0 eq_refl))].
      destruct (H1 eq_refl) as (_ & Hf & _). split; [exact Hnz|]. rewrite Hf. clear. split; lia.
  - rewrite orb_false_r. destruct (Nat.lt_ge_cases j J) as [Hlt|Hge].
    + rewrite (proj2 (Nat.ltb_ge J j)), (proj2 (Nat.leb_gt J j)), !Nat.add_0_r by (clear - Hlt; lia). exact (HH j c Hj Hn).
    + (* a page behind it: no event starts there *)
      split; [exact (proj1 (HH j c Hj Hn))|]. intros Hs. apply starts_in_spec in Hs. specialize (Hb j Hs). clear - Hb Hge Hne. lia.
Qed.

Lemma pgH_pos : (0 < pgH)%nat. Proof. vm_compute. lia. Qed.

Lemma commit_event_hcores b id i off : b_hdr b = Some (i, off) ->
  hcores (b_pages (commit_event b id)) = upd_nth i (hupd off id) (hcores (b_pages b)).
Proof.
  intros Hh. unfold hcores. rewrite (commit_event_spec b id i off Hh).
  destruct (i =? 1)%nat; [rewrite (map_upd_nth hcore) by reflexivity|];
    rewrite (map_mark_from hcore (fun c => c)), map_id, firstn_skipn by reflexivity;
    apply map_upd_nth_comm; intros p; unfold stamp, hupd, hcore; cbn [fst snd]; destruct (wp_off p =? 0)%nat; reflexivity.
Qed.

Lemma set_hdr_size_hcores b sz : hcores (b_pages (set_hdr_size b sz)) = hcores (b_pages b) /\ b_hdr (set_hdr_size b sz) = b_hdr b.
Proof.
  unfold set_hdr_size. destruct (b_hdr b) as [[i off]|] eqn:E; [|split; [reflexivity|exact E]].
  split; [apply map_upd_nth; reflexivity | reflexivity].
Qed.

Section Hdr.
Variable PS : nat.
Notation P := (payload PS).
Hypothesis HP : (hdr_len <= P)%nat.

Record HInv (s : wst) (endId : Z) (base : list Z) (done : list (list Z)) : Prop := {
  hi_id : ws_evId s = (endId + Z.of_nat (length done))%Z;
  hi_pages : HPL (hcores (ws_hist s ++ b_pages (ws_buf s))) endId (starts_from P (length base) done) }.

(* where the open header is, as a page index among all pages: behind the start pages of the completed events *)
Lemma starts_bound s base done cur : SI PS s base done cur ->
  exists i off, b_hdr (ws_buf s) = Some (i, off) /\ (i < length (b_pages (ws_buf s)))%nat /\ off <> 0%nat /\
    (forall y, In y (starts_from P (length base) done) -> (y <= length (ws_hist s) + i)%nat) /\
    ((length base + length (layout_from P (length base) done) + pad_at P (length base + length (layout_from P (length base) done))) / P
     = length (ws_hist s) + i)%nat.
Proof.
  intros [(h4 & _ & [Hok _ (DA & dp & DB & k & [HD Hh] & Hk & Hg)]) _].
  exists (length DA), (pgH + k)%nat. split; [exact Hh|]. unfold pdata, okp in *.
  rewrite HD, !Forall_app, Forall_cons_iff in Hok. destruct Hok as (_ & _ & Hdp & _).
  apply (f_equal (@length _)) in HD. rewrite app_length, !map_length in *. cbn [length] in HD.
  assert (Hkp : (k < P)%nat) by (pose proof hdr_len_4; clear - Hk Hdp H; lia).
  split; [clear - HD; lia|]. split; [pose proof pgH_pos; clear - H; lia|].
  assert (Hdiv : (length (pre_of PS base done) / P = length (ws_hist s) + length DA)%nat).
  { rewrite <- Hg, Nat.add_comm, Nat.div_add, (Nat.div_small k) by (clear - Hkp; lia). reflexivity. }
  rewrite <- Hdiv. clear - HP. unfold pre_of. rewrite !app_length, zeros_length, Nat.add_assoc.
  split; [|reflexivity]. assert (HP0 : (0 < P)%nat) by (pose proof hdr_len_4; lia).
  intros y Hy. etransitivity; [exact (starts_from_lt P HP0 _ _ _ Hy) | apply Nat.div_le_mono; lia].
Qed.

(* the header invariant needs the stream invariant to know where the open header is *)
Definition HI (endId : Z) (base : list Z) (s : wst) (done : list (list Z)) (cur : list Z) : Prop :=
  SI PS s base done cur /\ HInv s endId base done.

(* appending bytes keeps the headers; fresh pages (no header fields) may be added *)
Lemma HI_wrote endId base s data done cur : HI endId base s done cur -> HI endId base (wrote PS s data) done (cur ++ data).
Proof.
  intros [HS [Hid Hpg]]. split; [apply wrote_SI; assumption|]. split; [exact Hid|]. cbn [wrote ws_hist ws_buf].
  destruct (map_append PS hcore (fun _ _ => eq_refl) data (ws_buf s)) as [m Hm].
  unfold hcores in *. rewrite map_app, Hm, app_assoc, <- map_app. apply HPL_fresh; [exact Hpg|].
  destruct (starts_bound s base done cur HS) as (i & off & _ & Hi & _ & Hb & _).
  intros y Hy. specialize (Hb y Hy). rewrite map_length, app_length. clear - Hb Hi. lia.
Qed.

Lemma HI_nexted endId base s done cur : HI endId base s done cur -> HI endId base (nexted PS s) (done ++ [cur]) [].
Proof.
  intros [HS [Hid Hpg]]. split; [apply nexted_SI; assumption|].
  destruct (starts_bound s base done cur HS) as (i & off & Hh & Hi & Hoff & Hb & Hdiv).
  destruct (set_hdr_size_hcores (ws_buf s) (ws_evBytes s)) as [Hb0 Hh0]. rewrite Hh in Hh0.
  split; cbn [nexted ws_evId ws_hist ws_buf]; [rewrite Hid, app_length; cbn [length]; clear; lia|].
  destruct (map_reserve_hdr PS hcore (commit_event (set_hdr_size (ws_buf s) (ws_evBytes s)) (ws_evId s)) (fun _ _ => eq_refl)) as [m Hm].
  pose proof (commit_event_hcores _ (ws_evId s) i off Hh0) as Hc.
  unfold hcores in *. rewrite map_app, Hm, Hc, Hb0, app_assoc.
  rewrite <- upd_nth_app_r, <- map_app, map_length, starts_from_snoc, Hdiv.
  apply HPL_fresh.
  - rewrite Hid, <- (starts_from_length P done (length base)). apply HPL_next; assumption.
  - intros y Hy. rewrite upd_nth_length, map_length, app_length.
    apply in_app_or in Hy. destruct Hy as [Hy|[<-|[]]]; [specialize (Hb y Hy)|]; clear - Hb Hi; lia.
Qed.

(* a flush keeps the headers of all pages, released ones and buffer pages together; the tail position a successful one
   stores in the queue root names the next event *)
Lemma HI_kept endId base :
  Kept PS (HI endId base) (fun s fr => match fr with FDone _ _ _ => snd (q_tail (ws_root s)) = ws_evId s | _ => True end).
Proof.
  split; [intros s fo done cur [HS [Hid Hpg]] | intros s done cur [HS [Hid Hpg]] | apply HI_wrote | apply HI_nexted].
  - pose proof (do_flush_all hcore (fun c => c) (fun _ _ => eq_refl) (fun _ _ => eq_refl) (fun _ => eq_refl) s fo (fun _ => eq_refl)) as Hh.
    pose proof (do_flush_SI PS s fo base done cur HS) as HS'. pose proof (do_flush_fields s fo) as HF.
    destruct (do_flush s fo) as [s' r]. cbn [fst] in *. destruct HF as (_ & He & _ & HT).
    split; [split; [exact HS' | split; [rewrite He; exact Hid | unfold hcores in *; rewrite Hh; exact Hpg]]|].
    destruct r; [exact I | cbn [settled ws_root ws_evId]; rewrite He; exact HT | exact I].
  - split; [apply settled_SI, HS | split; assumption].
Qed.

Theorem w_init_HInv pages tail endId r :
  HInv (w_init PS pages tail endId r) endId (match tail with Some t => wp_data t | None => [] end) [].
Proof.
  split; cbn [w_init ws_evId ws_hist ws_buf length app]; [symmetry; apply Z.add_0_r|].
  intros j c Hj Hn. cbn [starts_from]. split; [|intros Hs; discriminate Hs]. intros _.
  set (b0 := match tail with Some t => _ | None => _ end) in Hn.
  destruct (map_reserve_hdr PS hcore b0 (fun _ _ => eq_refl)) as [m Hm]. unfold hcores in Hn. rewrite Hm in Hn.
  assert (Hc : In c (repeat (hcore fresh_wpage) m)); [|apply repeat_spec in Hc; subst c; reflexivity].
  unfold b0 in Hn. destruct tail as [t|]; cbn [b_pages map app] in Hn.
  - destruct j as [|j]; [inversion Hj|]. exact (nth_error_In _ j Hn).
  - exact (nth_error_In _ j Hn).
Qed.

End Hdr.

Lemma link_chain : forall l i x y, nth_error (link l) i = Some x -> nth_error (link l) (S i) = Some y -> wp_next x = wp_id y.
Proof.
  induction l as [|a [|b l] IH]; intros i x y Hx Hy.
  - destruct i; discriminate.
  - destruct i as [|i]; cbn in Hy; [discriminate | destruct i; discriminate].
  - change (link (a :: b :: l)) with (set_next (wp_id b) a :: link (b :: l)) in *.
    destruct i as [|i]; cbn [nth_error] in Hx, Hy; [|exact (IH i x y Hx Hy)].
    injection Hx as <-. pose proof (map_link wp_id (fun _ _ => eq_refl) (b :: l)) as Hid.
    destruct (link (b :: l)) as [|y0 r]; [discriminate|]. injection Hy as <-. injection Hid as -> _. reflexivity.
Qed.

(* the page images of a successful flush form a chain: the next field of every image (its second component) is the id
   (first component) of the image written after it *)
Theorem flush_images_linked s ids s' imgs pg al : do_flush s (FOk ids) = (s', FDone imgs pg al) ->
  forall i a b, nth_error imgs i = Some a -> nth_error imgs (S i) = Some b ->
  snd (fst (fst (fst (fst a)))) = fst (fst (fst (fst (fst b)))).
Proof.
  unfold do_flush. destruct (flush_range (ws_buf s)) as [[|n1] rep]; [discriminate|].
  set (range2 := link _). intros H. assert (E : imgs = map image_of range2) by congruence. clear H. subst imgs.
  intros i a b Ha Hb. rewrite nth_error_map in Ha, Hb.
  destruct (nth_error range2 i) as [x|] eqn:Ex; [|discriminate]. destruct (nth_error range2 (S i)) as [y|] eqn:Ey; [|discriminate].
  injection Ha as <-. injection Hb as <-. exact (link_chain _ i x y Ex Ey).
Qed.
