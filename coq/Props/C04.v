(* C04 -- Exclusive page ownership: allocation never hands out a page that is in use.
   Model: Model/Alloc.v (exact transcription of alloc.go / freelist.go / region.go, validated against
   the implementation after every operation of random scripts). Region lists are read as sets of
   page ids (inl). Property theorems only. *)
From VF Require Import Region Freelist Alloc RegionProofs AllocProofs TxAllocProofs MetaAllocProofs HistoryProofs OverflowProofs.
From Coq Require Import Lia.

(* Tx.Alloc / Tx.AllocN: every page handed out was free (in the data free list, or beyond the end of
   the data area), the pages are pairwise distinct (a well-formed region list), ids >= 2, and after the
   call they are neither free nor beyond the end: they can not be handed out again; nothing else
   changes (the meta area is untouched, the free list only shrinks). *)
Theorem C04_alloc_hands_out_free_pages_only : forall a t n regs cnt a' t',
  DataInv a -> 0 < n < 2^32 ->
  data_alloc_regions a t n = (regs, cnt, a', t') ->
  (data_avail a < n -> regs = [] /\ cnt = 0 /\ a' = a /\ t' = t) /\
  (n <= data_avail a ->
     cnt = n /\ count_pages regs = n /\ wfl 2 regs /\
     (forall id, inl id regs -> inl id (fregions (a_free (data a))) \/ a_end (data a) <= id) /\
     (forall id, inl id regs -> ~ inl id (fregions (a_free (data a'))) /\ id < a_end (data a')) /\
     DataInv a' /\
     (forall id, inl id (fregions (a_free (data a'))) -> inl id (fregions (a_free (data a)))) /\
     a_free (meta a') = a_free (meta a) /\ metaTotal a' = metaTotal a /\ maxPages a' = maxPages a /\
     (maxPages a <> 0 -> data_avail a' = data_avail a - n)).
Proof. exact data_alloc_regions_spec. Qed.
Print Assumptions C04_alloc_hands_out_free_pages_only.

(* freeing a page of the committed state only records it: the allocator is unchanged, so the page can
   not be handed out again before the commit *)
Theorem C04_freed_committed_page_not_reusable : forall a t id a' t',
  set_mem id (t_new (tdata t)) = false -> data_free a t id = Some (a', t') ->
  a' = a /\ t_freed (tdata t') = set_add id (t_freed (tdata t)) /\
  t_allocated (tdata t') = t_allocated (tdata t) /\ t_new (tdata t') = t_new (tdata t) /\
  2 <= id < a_end (data a).
Proof. intros a t id a' t' Hnew E. destruct (data_free_committed_eq a t id a' t' Hnew E) as (Hid & -> & ->). auto. Qed.

(* freeing a page allocated by the same transaction returns it to the free list and keeps the data
   area invariant (also when the end marker moves back) *)
Theorem C04_free_fresh_page : forall a t id a' t',
  DataInv a -> set_mem id (t_new (tdata t)) = true ->
  ~ inl id (fregions (a_free (data a))) ->
  data_free a t id = Some (a', t') ->
  DataInv a' /\
  (forall x, inl x (fregions (a_free (data a'))) -> x = id \/ inl x (fregions (a_free (data a)))) /\
  a_end (data a') <= a_end (data a) /\
  (forall x, x <> id -> inl x (fregions (a_free (data a))) -> x < a_end (data a') ->
             inl x (fregions (a_free (data a')))).
Proof.
  intros a t id a' t' ID Hnew Hnf E.
  destruct (data_free_fresh_eff a t id a' t' ID Hnew Hnf E) as (_ & _ & _ & W & Hs & _ & Hcut & _).
  split; [constructor; [exact W | intros x Hx; apply Hcut, Hx | lia]|].
  split; [intros x Hx; apply Hcut, Hx|]. split; [lia|]. intros x _ Hx Hlt. apply Hcut. auto.
Qed.
Print Assumptions C04_free_fresh_page.

(* the free-list operations as operations on sets of page ids *)
Theorem C04_freelist_alloc : forall fromEnd lo f n a f',
  wff lo f -> 0 <= n -> fl_alloc_regions fromEnd f n = (a, f') ->
  wff lo f' /\ wfl lo a /\
  (n <= avail f -> count_pages a = n /\ avail f' = avail f - n) /\
  (avail f < n -> a = [] /\ f' = f) /\
  (forall id, inl id (fregions f) <-> inl id a \/ inl id (fregions f')) /\
  (forall id, inl id a -> ~ inl id (fregions f')).
Proof. exact fl_alloc_regions_spec. Qed.
Theorem C04_freelist_add : forall f reg lo, wff lo f -> lo <= rid reg -> 0 < rcount reg < 2^32 ->
  (forall id, inr id reg -> ~ inl id (fregions f)) ->
  wff lo (fl_add_region f reg) /\
  (forall id, inl id (fregions (fl_add_region f reg)) <-> inr id reg \/ inl id (fregions f)) /\
  avail (fl_add_region f reg) = avail f + rcount reg.
Proof. exact fl_add_region_spec. Qed.
Theorem C04_freelist_remove : forall f reg lo, wff lo f ->
  wff lo (fl_remove_region f reg) /\
  (forall id, inl id (fregions (fl_remove_region f reg)) <-> inl id (fregions f) /\ ~ inr id reg).
Proof. exact fl_remove_region_spec. Qed.
Theorem C04_freelist_merge : forall a b lo, wfl lo a -> wfl lo b -> disjoint_l a b ->
  wfl lo (merge_region_lists a b) /\
  (forall id, inl id (merge_region_lists a b) <-> inl id a \/ inl id b) /\
  count_pages (merge_region_lists a b) = count_pages a + count_pages b.
Proof. exact merge_region_lists_spec. Qed.
Print Assumptions C04_freelist_merge.

(* ---- whole transactions: every state reachable by data allocations, frees, overwrite-page and meta page
   allocations (with every growth of the meta area they cause; no overflow area) keeps the two free lists
   disjoint, below the end of the data area, and the pages moved to the meta area out of the data free list ---- *)
Theorem C04_tx_invariant : forall a0 p a t, Inv0 a0 -> treach a0 p a t -> FullInv a0 a t.
Proof. exact treach_inv. Qed.
Print Assumptions C04_tx_invariant.

Theorem C04_free_lists_disjoint : forall a0 p a t, Inv0 a0 -> treach a0 p a t ->
  forall id, inl id (fregions (a_free (meta a))) -> ~ inl id (fregions (a_free (data a))) /\ id < a_end (data a).
Proof. intros a0 p a t I R. exact (fi_mbelow _ _ _ (treach_inv _ _ _ _ I R)). Qed.

(* an overwrite page handed out was a free page of the meta area and is free in neither list afterwards *)
Theorem C04_overwrite_page_fresh : forall a0 a t id a' t',
  Inv0 a0 -> FullInv a0 a t -> metaTotal a < 2^28 ->
  wal_alloc a t = Some (id, a', t') ->
  FullInv a0 a' t' /\
  (id <> 0 -> In id (t_allocated (tmeta t')) /\ ~ inl id (fregions (a_free (meta a'))) /\ ~ inl id (fregions (a_free (data a')))).
Proof. exact full_wal_alloc_step. Qed.
Theorem C04_meta_pages_fresh : forall a0 a t n regs a' t',
  Inv0 a0 -> FullInv a0 a t -> 0 <= n < 2^28 -> metaTotal a < 2^28 ->
  meta_alloc_regions a t n = Some (regs, a', t') ->
  FullInv a0 a' t' /\
  (forall id, inl id regs -> In id (t_allocated (tmeta t')) /\ ~ inl id (fregions (a_free (meta a'))) /\ ~ inl id (fregions (a_free (data a')))).
Proof. exact full_meta_alloc_step. Qed.
Print Assumptions C04_meta_pages_fresh.

(* growth of the meta area takes its pages out of the data free list or from past the end of the data area,
   never a page of the meta free list *)
Theorem C04_meta_growth : forall a t count ok a' t',
  DataInv a -> wff 2 (a_free (meta a)) ->
  (forall id, inl id (fregions (a_free (meta a))) -> ~ inl id (fregions (a_free (data a))) /\ id < a_end (data a)) ->
  a_end (data a) <= a_end (meta a) -> 0 <= count < 2^32 ->
  try_grow a t count false = (ok, a', t') ->
  (a' = a /\ t' = t) \/ exists regs, GrowEff a t a' t' regs.
Proof. exact try_grow_spec. Qed.

(* ---- whole histories: any sequence of transactions, each any sequence of operations (treach2 spells out what
   the caller owes: Tx.Free only of a data page in use, meta frees only of meta pages in use), each ending in
   the commit step or in a rollback. At every quiescent point: both free lists well-formed, disjoint, below the
   end of the data area, the free-list pages in neither of them, end markers within the size limit (InvQ);
   inside every transaction the invariants FullInv and FreedInv (nothing recorded as freed is in a free list
   or handed out again before the commit). Hence every page Alloc / the meta allocators hand out at any point of
   any history is a page that is free at that point (C04_alloc_hands_out_free_pages_only, C04_overwrite_page_fresh,
   C04_meta_pages_fresh apply in every such state). No overflow area; meta area < 2^28 pages. ---- *)
Theorem C04_history_invariant : forall a, hreach a -> InvQ a.
Proof. exact hreach_inv. Qed.
Print Assumptions C04_history_invariant.

Theorem C04_history_tx_invariant : forall a0 p a t, hreach a0 -> treach2 a0 p a t -> FullInv a0 a t /\ FreedInv a0 a t.
Proof. exact history_tx_inv. Qed.

(* the commit step: freed pages join the free lists only now; the result is again a quiescent state *)
Theorem C04_commit_step : forall a0 a t extra a',
  InvQ a0 -> FullInv a0 a t -> FreedInv a0 a t -> metaTotal a < 2^28 ->
  commit_n a (if tx_updated t then meta_free_regions t (flPages a) else t) < 2^28 ->
  commit_step a t extra = CoOk a' -> InvQ a'.
Proof. exact commit_step_inv. Qed.
Print Assumptions C04_commit_step.

(* non-vacuity *)
Definition ex_alloc : allocst :=
  {| maxPages := 64; pageSize := 1024;
     meta := {| a_end := 12; a_free := {| avail := 2; fregions := [{| rid := 3; rcount := 2 |}] |} |}; metaTotal := 4;
     data := {| a_end := 12; a_free := {| avail := 3; fregions := [{| rid := 7; rcount := 1 |}; {| rid := 9; rcount := 2 |}] |} |};
     flRoot := 2; flPages := [{| rid := 2; rcount := 1 |}] |}.
Example C04_ex_inv : DataInv ex_alloc.
Proof.
  constructor; cbn.
  - split; cbn; [|reflexivity]. repeat (constructor; cbn; try lia).
  - intros id [r [[<-|[<-|[]]] H]]; unfold inr, rend in H; cbn in H; lia.
  - lia.
Qed.
Example C04_ex_alloc : let '(regs, cnt, _, _) := data_alloc_regions ex_alloc (make_tx ex_alloc false 0) 5 in
  regs = [{| rid := 7; rcount := 1 |}; {| rid := 9; rcount := 2 |}; {| rid := 12; rcount := 2 |}] /\ cnt = 5.
Proof. vm_compute. split; reflexivity. Qed.

(* non-vacuity of the history theorem: a transaction that allocates an overwrite page (the meta area grows out
   of the data free list), allocates data pages, frees a committed page, and commits; then a second
   transaction that is rolled back *)
Definition ex_h : allocst :=
  {| maxPages := 64; pageSize := 1024; meta := {| a_end := 9; a_free := fl_empty |}; metaTotal := 0;
     data := {| a_end := 9; a_free := {| avail := 2; fregions := [{| rid := 3; rcount := 2 |}] |} |}; flRoot := 0; flPages := [] |}.
Example C04_ex_invq : InvQ ex_h.
Proof.
  constructor.
  - constructor; cbn.
    + constructor; cbn.
      * split; [constructor; cbn; [lia | lia | constructor] | reflexivity].
      * intros id H. apply inl_cons in H as [H|H]; [unfold inr, rend in H; cbn in H; lia | destruct (inl_nil _ H)].
      * lia.
    + split; [constructor | reflexivity].
    + lia.
    + intros id H. destruct (inl_nil _ H).
  - intros id H. destruct (inl_nil _ H).
  - right. cbn. lia.
Qed.
Example C04_ex_history : exists a1 a2, hreach a1 /\ hreach a2 /\ a1 <> ex_h /\ flPages a1 <> [].
Proof.
  (* each step is evaluated once; a1 t1 .. a5 t5 are the states the two transactions go through *)
  assert (no : forall id l, Forall (fun r => ~ inr id r) l -> ~ inl id l).
  { intros id l H [r [Hr Hi]]. rewrite Forall_forall in H. exact (H r Hr Hi). }
  pose (r1 := wal_alloc ex_h (make_tx ex_h false 0)). vm_compute in r1.
  pose (a1 := match r1 with Some (_, a, _) => a | None => ex_h end).
  pose (t1 := match r1 with Some (_, _, t) => t | None => make_tx ex_h false 0 end). vm_compute in a1, t1.
  assert (R1 : treach2 ex_h 0 a1 t1) by (eapply t2_wal; [apply t2_init | |]; vm_compute; reflexivity).
  pose (r2 := data_alloc_regions a1 t1 3). vm_compute in r2.
  pose (a2 := snd (fst r2)). pose (t2 := snd r2). vm_compute in a2, t2.
  assert (R2 : treach2 ex_h 0 a2 t2) by (eapply (t2_alloc _ _ _ _ 3); [exact R1 | split; reflexivity | vm_compute; reflexivity]).
  pose (r3 := data_free a2 t2 7). vm_compute in r3.
  pose (a3 := match r3 with Some (a, _) => a | None => a2 end). pose (t3 := match r3 with Some (_, t) => t | None => t2 end).
  vm_compute in a3, t3.
  assert (R3 : treach2 ex_h 0 a3 t3).
  { eapply (t2_free _ _ _ _ 7); [exact R2 | .. | vm_compute; reflexivity].
    1-3: apply no; unfold a2, t2; cbn; repeat first [apply Forall_nil | apply Forall_cons; [rlia|]].
    unfold prot, t2. cbn. intros [H|H]; [destruct H | destruct (inl_nil _ H)]. }
  pose (r4 := commit_step a3 t3 false). vm_compute in r4.
  pose (a4 := match r4 with CoOk a => a | _ => a3 end). vm_compute in a4.
  assert (H4 : hreach a4) by (eapply (h_commit _ 0 _ _ false); [apply h_init, C04_ex_invq | exact R3 | ..]; vm_compute; reflexivity).
  pose (r5 := data_alloc_regions a4 (make_tx a4 false 0) 4). vm_compute in r5.
  exists a4, (rollback (snd (fst r5)) (snd r5)). split; [exact H4|]. split.
  - eapply (h_abort _ 0); [exact H4 | eapply (t2_alloc _ _ _ _ 4); [apply t2_init | split; reflexivity |] |]; vm_compute; reflexivity.
  - split; intros E; vm_compute in E; discriminate E.
Qed.




(* ---- the overflow area (Tx option EnableOverflowArea) ----
   When the data area cannot provide the pages the meta area needs, everything the data area has left is moved
   (pages that were free: from its free list or from behind its end marker, below the limit) and the rest is
   appended to the file: the pages [E, E + required) lie at or beyond both end markers, so they are in no list
   and were never handed out. (Per operation; the invariant over whole histories, C04_history_invariant,
   is proved for transactions without the overflow area.) *)
Theorem C04_overflow_growth_takes_fresh_pages : forall a t count ok a' t',
  DataInv a -> wff 2 (a_free (meta a)) ->
  (forall id, inl id (fregions (a_free (meta a))) ->
     ~ inl id (fregions (a_free (data a))) /\ id < a_end (meta a) /\ (id < a_end (data a) \/ maxPages a <= id)) ->
  a_end (data a) <= a_end (meta a) ->
  0 < maxPages a -> 0 < count < 2^32 -> data_avail a < count ->
  try_grow a t count true = (ok, a', t') ->
  let av := data_avail a in
  let required := count - av in
  exists regs E,
    ok = true /\
    count_pages regs = av /\ wfl 2 regs /\
    (forall id, inl id regs -> inl id (fregions (a_free (data a))) \/ a_end (data a) <= id) /\
    (forall id, inl id regs -> ~ inl id (fregions (a_free (data a'))) /\ id < a_end (data a')) /\
    (forall id, inl id (fregions (a_free (data a'))) -> inl id (fregions (a_free (data a)))) /\
    DataInv a' /\
    a_end (meta a) <= E /\ a_end (data a') <= E /\ E <= Z.max (a_end (meta a)) (maxPages a) /\
    a_end (data a') <= Z.max (a_end (data a)) (maxPages a) /\
    a_end (meta a') = E + required /\ 0 < required /\
    wff 2 (a_free (meta a')) /\
    (forall id, inl id (fregions (a_free (meta a'))) <->
       inl id (fregions (a_free (meta a))) \/ inl id regs \/ E <= id < E + required) /\
    metaTotal a' = metaTotal a + count /\
    moveToMeta t' = moveToMeta t ++ regs /\
    st_ovf_alloc t' = st_ovf_alloc t + required /\
    maxPages a' = maxPages a /\
    (exists regs1 regs2, regs = regs1 ++ regs2 /\ wfl 2 regs1 /\
       (forall id, inl id regs1 <-> inl id (fregions (a_free (data a))) /\ ~ inl id (fregions (a_free (data a')))) /\
       (forall id, inl id regs2 -> a_end (data a) <= id) /\
       t_allocated (tdata t') = set_add_all (regions_ids regs1) (t_allocated (tdata t))) /\
    t_end (tdata t') = t_end (tdata t) /\ t_end (tmeta t') = t_end (tmeta t) /\
    t_allocated (tmeta t') = t_allocated (tmeta t) /\
    pageSize a' = pageSize a /\ flRoot a' = flRoot a /\ flPages a' = flPages a.
Proof. exact try_grow_overflow_spec. Qed.
Print Assumptions C04_overflow_growth_takes_fresh_pages.

Example C04_ex_overflow :
  data_avail ovf_ex = 6 /\
  (let '(ok, a, t) := try_grow ovf_ex (make_tx ovf_ex true 0) 10 true in
   ok = true /\ a_end (meta a) = 68 /\ a_end (data a) = 64 /\ metaTotal a = 14 /\ st_ovf_alloc t = 4 /\
   fregions (a_free (meta a)) = [{| rid := 5; rcount := 1 |}; {| rid := 10; rcount := 2 |}; {| rid := 60; rcount := 8 |}] /\
   rollback a t = ovf_ex).
Proof. exact ovf_ex_grow_and_rollback. Qed.
