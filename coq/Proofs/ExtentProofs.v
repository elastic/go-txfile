(* The extent of the file inside a write transaction without overflow area: neither end marker ever moves beyond
   the larger of (the end of the file when the transaction began) and (the size limit). In particular a file that
   already extends beyond a lowered limit is not extended any further, and a file within its limit stays there
   (C11, C14). Holds for every state a transaction can reach (treach), from any committed state satisfying Inv0 -
   also one whose end markers are beyond the limit. Last, the page count of a bounded file against its size in
   bytes (readAllocatorState). *)
From VF Require Import Region Freelist Alloc RegionProofs AllocProofs MetaAllocProofs HistoryProofs.
From Coq Require Import Lia ZifyBool.

Lemma ensure_limit a0 a t n ok a' t' :
  Inv0 a0 -> FullInv a0 a t -> 0 < maxPages a -> 0 <= n < 2^28 -> metaTotal a < 2^28 ->
  ensure a t n = Some (ok, a', t') -> FullInv a0 a' t' /\ within_limit a a'.
Proof.
  intros I0 F Hmx.
  apply (ensure_chain a0 (fun b u => FullInv a0 b u /\ within_limit a b)).
  - intros b u H. apply H.
  - intros b u b' u' ra rn [F1 L] T. split; [exact (full_grow a0 _ _ _ _ _ _ I0 F1 T)|].
    apply (within_limit_trans _ _ _ L), (te_limit T). destruct L as [_ ->]. exact Hmx.
  - split; [exact F | apply within_limit_refl].
Qed.

Lemma meta_taken_limit a t a' t' regs : MetaTaken a t a' t' regs -> within_limit a a'.
Proof. intros (f' & _ & _ & _ & _ & -> & _). apply (within_limit_same a a); [apply within_limit_refl | reflexivity..]. Qed.

(* dataAllocator.Free moves the end markers back only *)
Lemma data_free_limit a t id a' t' :
  DataInv a -> ~ inl id (Dset a) -> data_free a t id = Some (a', t') -> within_limit a a'.
Proof.
  intros ID Hnf E. destruct (set_mem id (t_new (tdata t))) eqn:Enew.
  - destruct (data_free_fresh_eff a t id a' t' ID Enew Hnf E) as (_ & (S1 & _) & Hm & _ & Hle & _).
    unfold within_limit. rewrite Hm, S1. destruct (_ =? _) eqn:Em; lia.
  - destruct (data_free_committed_eq a t id a' t' Enew E) as (_ & -> & _). apply within_limit_refl.
Qed.

Lemma treach_within_limit a0 p a t : Inv0 a0 -> 0 < maxPages a0 -> treach a0 p a t -> within_limit a0 a.
Proof.
  intros I0 Hmx R.
  (* every operation starts from a state with the same limit that satisfies the invariant of the transaction *)
  assert (Hstep: forall a t a', treach a0 p a t -> within_limit a0 a ->
            (0 < maxPages a -> FullInv a0 a t -> within_limit a a') -> within_limit a0 a').
  { intros b u b' Rb L Hs. apply (within_limit_trans _ _ _ L), Hs; [destruct L as [_ ->]; exact Hmx|].
    exact (treach_inv _ _ _ _ I0 Rb). }
  induction R as [|a t n regs cnt a' t' R IH Hn E|a t id a' t' R IH H1 H2 H3 E|a t id a' t' R IH Htot E
                  |a t n regs a' t' R IH Hn Htot E|a t id R IH].
  - apply within_limit_refl.
  - apply (Hstep a t a' R IH). intros Hm _. exact (data_alloc_regions_limit _ _ _ _ _ _ _ Hm E).
  - apply (Hstep a t a' R IH). intros _ F. exact (data_free_limit _ _ _ _ _ (fi_data _ _ _ F) H1 E).
  - apply (Hstep a t a' R IH). intros Hm F. destruct (wal_alloc_eff _ _ _ _ _ E) as (ok & a1 & t1 & Ee & H).
    destruct (ensure_limit a0 _ _ 1 _ _ _ I0 F Hm ltac:(lia) Htot Ee) as [F1 L].
    destruct (H (fi_mwf _ _ _ F1)) as [(_ & -> & _)|T];
      [exact L | exact (within_limit_trans _ _ _ L (meta_taken_limit _ _ _ _ _ T))].
  - apply (Hstep a t a' R IH). intros Hm F. destruct (meta_alloc_regions_eff _ _ _ _ _ _ (proj1 Hn) E) as (ok & a1 & t1 & Ee & H).
    destruct (ensure_limit a0 _ _ _ _ _ _ I0 F Hm Hn Htot Ee) as [F1 L].
    destruct (H (fi_mwf _ _ _ F1)) as [(_ & -> & _)|(rs & T & _)];
      [exact L | exact (within_limit_trans _ _ _ L (meta_taken_limit _ _ _ _ _ T))].
  - exact IH.
Qed.

Theorem extent_in_tx a0 p a t :
  Inv0 a0 -> 0 < maxPages a0 -> treach a0 p a t ->
  let M := Z.max (a_end (meta a0)) (maxPages a0) in
  (a_end (data a) <= M /\ a_end (meta a) <= M) /\ maxPages a = maxPages a0.
Proof.
  intros I0 Hmx R. pose proof (treach_within_limit a0 p a t I0 Hmx R) as L. pose proof (i0_ends _ I0).
  unfold within_limit in L. lia.
Qed.

(* non-vacuity: a committed state whose file extends beyond a lowered limit (20 pages, limit 10) satisfies Inv0 *)
Definition shrunk_ex : allocst :=
  {| maxPages := 10; pageSize := 1024;
     meta := {| a_end := 20; a_free := {| avail := 0; fregions := [] |} |}; metaTotal := 0;
     data := {| a_end := 20; a_free := {| avail := 3; fregions := [{| rid := 12; rcount := 3 |}] |} |};
     flRoot := 0; flPages := [] |}.
Example shrunk_ex_inv0 : Inv0 shrunk_ex /\ 0 < maxPages shrunk_ex /\ maxPages shrunk_ex < a_end (data shrunk_ex).
Proof.
  split; [|cbn; lia]. constructor.
  - constructor; cbn.
    + split; [constructor; cbn; try lia; constructor | reflexivity].
    + intros id H%inl_single. unfold inr, rend in H. cbn in H. lia.
    + lia.
  - split; [constructor | reflexivity].
  - cbn. lia.
  - intros id H. destruct (inl_nil _ H).
Qed.

Corollary never_beyond_max_in_tx a0 p a t :
  Inv0 a0 -> 0 < maxPages a0 -> a_end (meta a0) <= maxPages a0 -> treach a0 p a t ->
  a_end (data a) <= maxPages a0 /\ a_end (meta a) <= maxPages a0.
Proof. intros I0 Hmx Hle R. pose proof (extent_in_tx a0 p a t I0 Hmx R) as E. cbv zeta in E. lia. Qed.

(* every state of every transaction of every history (without overflow area) on a bounded file: the file ends at
   or below the limit *)
Corollary never_beyond_max_history a0 p a t :
  hreach a0 -> 0 < maxPages a0 -> treach2 a0 p a t ->
  a_end (data a) <= maxPages a0 /\ a_end (meta a) <= maxPages a0 /\ maxPages a = maxPages a0.
Proof.
  intros H Hmx R. destruct (hreach_inv _ H) as [I0 _ Cap].
  pose proof (extent_in_tx a0 p a t I0 Hmx (treach2_treach _ _ _ _ R)) as E. cbv zeta in E. unfold EndInv in Cap. lia.
Qed.

Theorem max_pages_within_size maxSize ps endp :
  0 < ps -> 0 < maxSize -> 0 <= endp <= max_pages_of maxSize ps -> endp * ps <= maxSize.
Proof.
  intros Hps Hm [H0 H]. unfold max_pages_of in H. replace (0 <? maxSize) with true in H by (symmetry; apply Z.ltb_lt; exact Hm).
  pose proof (Z.mul_div_le maxSize ps Hps). nia.
Qed.
(* max_pages_of is the largest count with that property *)
Theorem max_pages_largest maxSize ps : 0 < ps -> 0 < maxSize -> (max_pages_of maxSize ps + 1) * ps > maxSize.
Proof.
  intros Hps Hm. unfold max_pages_of. replace (0 <? maxSize) with true by (symmetry; apply Z.ltb_lt; exact Hm).
  pose proof (Z.mod_pos_bound maxSize ps Hps). pose proof (Z.div_mod maxSize ps ltac:(lia)). nia.
Qed.
(* rounding up (seeded change C11j): a file filled to its last page is larger than the maximum size *)
Theorem max_pages_ceil_refuted : exists maxSize ps, 0 < ps /\ 0 < maxSize /\ max_pages_ceil maxSize ps * ps > maxSize.
Proof. exists 66048, 1024. vm_compute. repeat split; reflexivity. Qed.
