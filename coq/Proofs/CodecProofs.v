(* Round trip of the run-length region codec (region.go encodeRegion / decodeRegion). *)
From VF Require Import Region BytesProofs.
From Coq Require Import Lia ZifyBool.

(* a multiple of 2^k and a number below 2^k share no bit: or-ing them adds them, and division by 2^k separates them *)
Lemma land_high_low hi lo k : 0 <= k -> 0 <= lo < 2^k -> Z.land (hi * 2^k) lo = 0.
Proof.
  intros Hk Hlo. apply Z.bits_inj'. intros m Hm. rewrite Z.land_spec, Z.bits_0.
  destruct (Z_lt_ge_dec m k).
  - rewrite Z.mul_pow2_bits_low by lia. reflexivity.
  - destruct (Z.eq_dec lo 0) as [->|Hne]; [rewrite Z.bits_0; apply andb_false_r|].
    rewrite (Z.bits_above_log2 lo m); [apply andb_false_r | lia |].
    apply Z.lt_le_trans with k; [|lia]. apply Z.log2_lt_pow2; lia.
Qed.

Lemma lor_high_low hi lo k : 0 <= k -> 0 <= lo < 2^k -> Z.lor (hi * 2^k) lo = hi * 2^k + lo.
Proof.
  intros Hk Hlo. pose proof (land_high_low hi lo k Hk Hlo) as H.
  rewrite <- Z.lxor_lor by exact H. symmetry. apply Z.add_nocarry_lxor. exact H.
Qed.

Lemma land_flag f lo k : 0 <= k -> 0 <= lo < 2^k -> f = 0 \/ f = 1 -> Z.land (2^k) (f * 2^k + lo) = f * 2^k.
Proof.
  intros Hk Hlo Hf. rewrite <- (Z.mul_1_l (2^k)) at 1.
  rewrite <- lor_high_low, Z.land_lor_distr_r, (land_high_low 1 lo), Z.lor_0_r by assumption.
  destruct Hf as [-> | ->]; [rewrite Z.mul_0_l; apply Z.land_0_r | apply Z.land_diag].
Qed.

Lemma div_mod_high_low hi lo k : 0 <= k -> 0 <= lo < 2^k ->
  (hi * 2^k + lo) / 2^k = hi /\ (hi * 2^k + lo) mod 2^k = lo.
Proof.
  intros Hk Hlo. assert (Hp : 2^k <> 0) by (apply Z.pow_nonzero; lia).
  rewrite Z.div_add_l, (Z.add_comm (hi * 2^k)), Z.mod_add, Z.div_small, Z.mod_small by assumption. split; [apply Z.add_0_r | reflexivity].
Qed.

(* the entry word: flag (bit 63), count field (bits 55..62), page id (bits 0..54) *)
Definition entry_value (m : bool) (c id : Z) : Z := ((if m then 1 else 0) * 2^8 + c) * 2^55 + id.

Lemma entry_word (m : bool) c id : 0 <= c < 2^8 -> 0 <= id < 2^55 ->
  Z.lor (Z.lor (if m then meta_flag else 0) (Z.shiftl c entry_shift)) id = entry_value m c id.
Proof.
  intros Hc Hid. unfold entry_value, meta_flag, entry_shift. change (64 - entryBits) with 55.
  rewrite Z.shiftl_mul_pow2 by lia.
  replace (if m then 2^63 else 0) with ((if m then 1 else 0) * 2^63) by (destruct m; reflexivity).
  rewrite lor_high_low by lia.
  replace (_ * 2^63 + c * 2^55) with (((if m then 1 else 0) * 2^8 + c) * 2^55) by ring.
  apply lor_high_low; lia.
Qed.

(* a count field of 0, which decodeRegion reads as one page, is left out: encodeRegion writes the count itself, 1 for
   one page *)
Lemma decode_word (m : bool) c id rest : 0 < c < 2^8 -> 0 <= id < 2^55 ->
  decode_region (le_encode 8 (entry_value m c id) ++ rest) =
  (m, {| rid := id; rcount := if c =? entryOverflow then get_le 0 4 rest else c |},
   if c =? entryOverflow then 12 else 8).
Proof.
  intros Hc Hid. unfold entry_value. set (f := if m then 1 else 0).
  assert (Hf : f = 0 \/ f = 1) by (unfold f; destruct m; auto).
  assert (Hh : 0 <= f * 2^8 + c < 2^9) by lia.
  unfold decode_region, meta_flag, entry_shift, entryBits. change (64 - 9) with 55.
  rewrite get_le_0_app_dec, get_le_skip_dec by apply le_encode_length.
  rewrite le_decode_encode by (change (256 ^ Z.of_nat 8) with (2^64); lia).
  (* the page id: v * 2^9 mod 2^64 / 2^9 = v mod 2^55 *)
  change (2^64) with (2^55 * 2^9). rewrite Z.mul_mod_distr_r, Z.div_mul by discriminate.
  rewrite (proj2 (div_mod_high_low _ id 55 ltac:(discriminate) Hid)).
  (* the count field: v / 2^55 mod 2^8 *)
  change (2^(9 - 1) - 1) with (Z.ones 8). rewrite Z.land_ones, Z.shiftr_div_pow2 by discriminate.
  rewrite (proj1 (div_mod_high_low _ id 55 ltac:(discriminate) Hid)), (proj2 (div_mod_high_low f c 8 ltac:(discriminate) ltac:(lia))).
  (* the flag *)
  replace (_ * 2^55 + id) with (f * 2^63 + (c * 2^55 + id)) by ring. rewrite land_flag by (assumption || lia).
  replace (c =? 0) with false by lia. unfold f. destruct m, (c =? entryOverflow); reflexivity.
Qed.

(* the bounds: a count of 0 would be written as count field 0 and read back as 1; the count is a uint32; an id of
   2^55 or more would run into the count field *)
Theorem region_roundtrip isMeta r rest :
  1 <= rcount r < 2^32 -> 0 <= rid r < 2^55 ->
  decode_region (encode_region isMeta r ++ rest) = (isMeta, r, region_enc_size r) /\
  Z.of_nat (length (encode_region isMeta r)) = region_enc_size r.
Proof.
  intros Hc Hid. unfold encode_region, region_enc_size. change entryOverflow with 255.
  destruct r as [id c]. cbn [rid rcount] in *. destruct (c <? 255) eqn:Es; rewrite entry_word by lia.
  - rewrite decode_word by lia. change entryOverflow with 255. replace (c =? 255) with false by lia.
    split; [reflexivity | rewrite le_encode_length; reflexivity].
  - rewrite <- app_assoc, decode_word by lia.
    rewrite get_le_0_app_dec, le_decode_encode by (apply le_encode_length || (change (256 ^ Z.of_nat 4) with (2^32); lia)).
    split; [reflexivity | rewrite app_length, !le_encode_length; reflexivity].
Qed.
