(* Whole histories of transactions on the allocator model: what is recorded as freed inside a transaction,
   the commit step, and the invariant at every quiescent point of every history (no overflow area). *)
From VF Require Import Region Freelist Alloc RegionProofs AllocProofs MetaAllocProofs.
From Coq Require Import Lia ZifyBool.

(* the meta end marker is the end of the file (i0_ends): it bounds both markers *)
Definition EndInv (a : allocst) : Prop := maxPages a = 0 \/ a_end (meta a) <= maxPages a.

(* a page in use: inside the data area and in neither free list *)
Definition used (a : allocst) (id : Z) : Prop :=
  2 <= id < a_end (data a) /\ ~ inl id (Dset a) /\ ~ inl id (Mset a).

(* protected meta pages: freed meta pages of this transaction and the free-list pages of the committed state
   (they are freed by the commit itself) *)
Definition prot (a0 : allocst) (t : txst) (id : Z) : Prop := In id (t_freed (tmeta t)) \/ inl id (flPages a0).

Record FreedInv (a0 a : allocst) (t : txst) : Prop := {
  fr_d : forall id, In id (t_freed (tdata t)) ->
           2 <= id < a_end (data a) /\ ~ inl id (Dset a) /\ ~ inl id (Mset a) /\
           ~ In id (t_new (tdata t)) /\ ~ prot a0 t id;
  fr_m : forall id, prot a0 t id -> 2 <= id < a_end (data a) /\ ~ inl id (Dset a) /\ ~ inl id (Mset a);
  fr_sorted : sorted_from 2 (t_freed (tdata t)) /\ sorted_from 2 (t_freed (tmeta t));
  fr_cap : EndInv a }.

(* the allocator between two transactions *)
Record InvQ (a : allocst) : Prop := {
  q_inv0 : Inv0 a;
  q_fl : forall id, inl id (flPages a) -> 2 <= id < a_end (data a) /\ ~ inl id (Dset a) /\ ~ inl id (Mset a);
  q_cap : EndInv a }.

Lemma freed_init a0 p : InvQ a0 -> FreedInv a0 a0 (make_tx a0 false p).
Proof.
  intros [I0 Hfl Hcap]. constructor; cbn.
  - intros id [].
  - intros id [[]|H]. apply Hfl. exact H.
  - split; constructor.
  - exact Hcap.
Qed.

(* a step that only takes pages away from the data free list / adds pages that were free or past the end to
   the meta free list and to [new], and leaves the freed sets alone *)
Lemma freed_mono a0 a t a' t' :
  FreedInv a0 a t ->
  (forall id, inl id (Dset a') -> inl id (Dset a)) ->
  (forall id, inl id (Mset a') -> inl id (Mset a) \/ inl id (Dset a) \/ a_end (data a) <= id) ->
  (forall id, In id (t_new (tdata t')) -> In id (t_new (tdata t)) \/ inl id (Dset a) \/ a_end (data a) <= id) ->
  a_end (data a) <= a_end (data a') ->
  t_freed (tdata t') = t_freed (tdata t) -> t_freed (tmeta t') = t_freed (tmeta t) ->
  EndInv a' -> FreedInv a0 a' t'.
Proof.
  intros [Fd Fm Fs Fc] HD HM HN He Hfd Hfm Hcap.
  assert (Hfree: forall id, used a id -> used a' id).
  { intros id (A & B & C). split; [lia|]. split; [intros X; exact (B (HD _ X))|].
    intros X. apply HM in X as [X|[X|X]]; [exact (C X) | exact (B X) | lia]. }
  constructor; unfold prot; rewrite ?Hfd, ?Hfm; try assumption.
  - intros id H. destruct (Fd id H) as (A & B & C & D & E).
    destruct (Hfree id (conj A (conj B C))) as (A' & B' & C'). repeat split; try assumption; try lia.
    intros X. apply HN in X as [X|[X|X]]; [exact (D X) | exact (B X) | lia].
  - intros id H. exact (Hfree id (Fm id H)).
Qed.

(* Tx.Alloc and every growth of the meta area *)
Lemma freed_take a0 a t a' t' ra rn mv :
  FullInv a0 a t -> FreedInv a0 a t -> TakeEff a t a' t' ra rn mv ->
  (forall id, inl id mv -> inl id (ra ++ rn)) -> FreedInv a0 a' t'.
Proof.
  intros F R E Hmv. destruct (te_tx E) as (X1 & _ & _ & _ & _ & X6).
  assert (Hfrom: forall id, inl id (ra ++ rn) -> inl id (Dset a) \/ a_end (data a) <= id).
  { intros id H. apply inl_app in H as [H|H]; [left; exact (te_ra E H) | exact (te_rn E H)]. }
  apply (freed_mono a0 a t a' t' R).
  - intros id. apply (te_sub E).
  - intros id H. apply (te_meta E) in H as [H|H]; [left; exact H | right; exact (Hfrom _ (Hmv _ H))].
  - rewrite (te_new E). intros id H. apply add_regions_in in H as [H|H]; [right | left; exact H].
    apply Hfrom, inl_app. right. exact H.
  - exact (te_end E).
  - exact X6.
  - rewrite X1. reflexivity.
  - destruct (fi_ends _ _ _ F) as [_ Fe]. pose proof (di_end _ (fi_data _ _ _ F)). pose proof (te_limit E) as L.
    unfold EndInv, within_limit in *.
    destruct (fr_cap _ _ _ R) as [C|C]; [left; destruct (te_static E) as (Y & _); congruence | right; lia].
Qed.

Lemma freed_alloc_step a0 a t n regs cnt a' t' :
  FullInv a0 a t -> FreedInv a0 a t -> 0 < n < 2^32 ->
  data_alloc_regions a t n = (regs, cnt, a', t') -> FreedInv a0 a' t'.
Proof.
  intros F R Hn E.
  destruct (data_alloc_regions_take a t n regs cnt a' t' (fi_data _ _ _ F) ltac:(lia) E) as [(_ & _ & _ & -> & ->)|(_ & _ & ra & rn & _ & T & _)]; [exact R|].
  apply (freed_take a0 a t a' t' ra rn [] F R T). intros id H. destruct (inl_nil _ H).
Qed.

(* Ensure: the freed sets stay as they are *)
Lemma ensure_freed a0 a t n ok a' t' :
  Inv0 a0 -> FullInv a0 a t -> FreedInv a0 a t -> 0 <= n < 2^28 -> metaTotal a < 2^28 ->
  ensure a t n = Some (ok, a', t') ->
  FullInv a0 a' t' /\ FreedInv a0 a' t' /\
  t_freed (tdata t') = t_freed (tdata t) /\ t_freed (tmeta t') = t_freed (tmeta t).
Proof.
  intros I0 F R.
  apply (ensure_chain a0 (fun b u => FullInv a0 b u /\ FreedInv a0 b u /\
                            t_freed (tdata u) = t_freed (tdata t) /\ t_freed (tmeta u) = t_freed (tmeta t))).
  - intros b u H. apply H.
  - intros b u b' u' ra rn (F1 & R1 & Q1 & Q2) T. destruct (te_tx T) as (X1 & _ & _ & _ & _ & X6).
    split; [exact (full_grow a0 _ _ _ _ _ _ I0 F1 T)|]. split; [apply (freed_take a0 b u b' u' ra rn _ F1 R1 T); auto|].
    rewrite X1, X6. split; assumption.
  - split; [exact F|]. split; [exact R|]. split; reflexivity.
Qed.

Lemma freed_meta_take a0 a t a' t' regs :
  FreedInv a0 a t -> MetaTaken a t a' t' regs -> FreedInv a0 a' t'.
Proof.
  intros R (f' & _ & _ & Hset & _ & -> & ->).
  apply (freed_mono a0 a t _ _ R); cbn [data meta a_end a_free set_meta tdata tmeta tx_stats tx_with ta_allocated t_freed t_new];
    try tauto; [intros id H; left; apply Hset; right; exact H | lia | exact (fr_cap _ _ _ R)].
Qed.

Lemma freed_wal_alloc_step a0 a t id a' t' :
  Inv0 a0 -> FullInv a0 a t -> FreedInv a0 a t -> metaTotal a < 2^28 ->
  wal_alloc a t = Some (id, a', t') -> FreedInv a0 a' t'.
Proof.
  intros I0 F R Htot E. destruct (wal_alloc_eff _ _ _ _ _ E) as (ok & a1 & t1 & Ee & H).
  destruct (ensure_freed a0 a t 1 ok a1 t1 I0 F R ltac:(lia) Htot Ee) as (F1 & R1 & _).
  destruct (H (fi_mwf _ _ _ F1)) as [(_ & -> & ->)|T]; [exact R1 | exact (freed_meta_take _ _ _ _ _ _ R1 T)].
Qed.

(* the last clause is what commit_pages needs of the new free-list pages *)
Lemma freed_meta_alloc_step a0 a t n regs a' t' :
  Inv0 a0 -> FullInv a0 a t -> FreedInv a0 a t -> 0 <= n < 2^28 -> metaTotal a < 2^28 ->
  meta_alloc_regions a t n = Some (regs, a', t') ->
  FreedInv a0 a' t' /\ t_freed (tdata t') = t_freed (tdata t) /\ t_freed (tmeta t') = t_freed (tmeta t) /\
  (forall id, inl id regs -> 2 <= id < a_end (data a') /\ ~ In id (t_freed (tdata t)) /\ ~ prot a0 t id).
Proof.
  intros I0 F R Hn Htot E. destruct (meta_alloc_regions_eff _ _ _ _ _ _ (proj1 Hn) E) as (ok & a1 & t1 & Ee & H).
  destruct (ensure_freed a0 a t n ok a1 t1 I0 F R Hn Htot Ee) as (F1 & R1 & Q1 & Q2).
  destruct (H (fi_mwf _ _ _ F1)) as [(-> & -> & ->)|(rs & T & Hrs)].
  { split; [exact R1|]. split; [exact Q1|]. split; [exact Q2|]. intros id Hid. destruct (inl_nil _ Hid). }
  split; [exact (freed_meta_take _ _ _ _ _ _ R1 T)|].
  destruct T as (f' & _ & Wr & Hset & _ & -> & ->). cbn [tdata tmeta tx_stats tx_with ta_allocated t_freed data set_meta].
  split; [exact Q1|]. split; [exact Q2|].
  intros id Hid. apply Hrs in Hid. assert (Hm: inl id (Mset a1)) by (apply Hset; left; exact Hid).
  split; [split; [exact (wfl_lower _ _ _ Wr Hid) | apply (fi_mbelow _ _ _ F1 id Hm)]|].
  split; intros X.
  - rewrite <- Q1 in X. destruct (fr_d _ _ _ R1 id X) as (_ & _ & C & _). exact (C Hm).
  - unfold prot in X. rewrite <- Q2 in X. apply (fr_m _ _ _ R1 id X), Hm.
Qed.

(* metaManager.Free of a meta page in use *)
Lemma freed_meta_free_step a0 a t id :
  FreedInv a0 a t -> 2 <= id < a_end (data a) -> ~ inl id (Dset a) -> ~ inl id (Mset a) ->
  ~ In id (t_freed (tdata t)) -> FreedInv a0 a (meta_free t id).
Proof.
  intros [Fd Fm [Fs1 Fs2] Fc] Hb Hd Hm Hnf.
  assert (Hprot: forall x, prot a0 (meta_free t id) x <-> x = id \/ prot a0 t x).
  { intros x. unfold prot. cbn. rewrite set_add_in. tauto. }
  constructor; cbn [tdata meta_free tx_stats tx_with].
  - intros x H. destruct (Fd x H) as (A & B & C & D & E). repeat split; try assumption; try lia.
    intros X. apply Hprot in X as [->|X]; [exact (Hnf H) | exact (E X)].
  - intros x H. apply Hprot in H as [->|H]; [split; [exact Hb | split; assumption] | apply Fm; exact H].
  - cbn. split; [exact Fs1 | apply set_add_sorted; [exact Fs2 | lia]].
  - exact Fc.
Qed.

(* Tx.Free of a data page in use *)
Lemma freed_free_step a0 a t id a' t' :
  FullInv a0 a t -> FreedInv a0 a t ->
  ~ inl id (Dset a) -> ~ inl id (Mset a) -> ~ prot a0 t id ->
  data_free a t id = Some (a', t') -> FreedInv a0 a' t'.
Proof.
  intros F [Fd Fm Fs Fc] Hnf Hnm Hnp E.
  pose proof (fi_data _ _ _ F) as FD.
  destruct (set_mem id (t_new (tdata t))) eqn:Enew.
  - destruct (data_free_fresh_eff a t id a' t' FD Enew Hnf E) as (-> & (S1 & _ & S3 & _) & Hmend & _ & Hle & _ & _ & Hused). clear E.
    apply set_mem_in in Enew.
    assert (Hfree: forall x, x <> id -> used a x -> used a' x).
    { intros x Hne (A & B & C). destruct (Hused x) as [B' A']; [lia | exact Hne | exact B|].
      split; [lia|]. split; [exact B' | rewrite S3; exact C]. }
    constructor; try assumption.
    + intros x H. destruct (Fd x H) as (A & B & C & D & E1).
      assert (Hne: x <> id) by (intros ->; contradiction).
      destruct (Hfree x Hne (conj A (conj B C))) as (A' & B' & C'). repeat split; assumption || lia.
    + intros x H. apply (Hfree x); [intros ->; contradiction | exact (Fm x H)].
    + unfold EndInv in *. rewrite S1, Hmend. destruct Fc as [C|C]; [left; exact C | right].
      destruct (fi_ends _ _ _ F). destruct (a_end (meta a) =? a_end (data a)) eqn:Em; lia.
  - (* a page of the committed state (or one taken from the free list): recorded *)
    destruct (data_free_committed_eq a t id a' t' Enew E) as (Hb & -> & ->).
    assert (Hnn: ~ In id (t_new (tdata t))) by (intros X; apply set_mem_in in X; congruence).
    constructor; unfold prot; cbn [tdata tmeta tx_with tx_stats ta_freed t_freed t_new]; try assumption.
    + intros x H. apply set_add_in in H as [->|H]; [repeat split; assumption || lia | exact (Fd x H)].
    + split; [apply set_add_sorted; [apply Fs | lia] | apply Fs].
Qed.

(* treach with the obligations of the caller spelled out: which pages may be freed *)
Inductive treach2 (a0 : allocst) (p : Z) : allocst -> txst -> Prop :=
| t2_init : treach2 a0 p a0 (make_tx a0 false p)
| t2_alloc a t n regs cnt a' t' :
    treach2 a0 p a t -> 0 < n < 2^32 -> data_alloc_regions a t n = (regs, cnt, a', t') -> treach2 a0 p a' t'
| t2_free a t id a' t' :            (* Tx.Free of a data page in use *)
    treach2 a0 p a t -> ~ inl id (Dset a) -> ~ inl id (Mset a) -> ~ inl id (moveToMeta t) -> ~ prot a0 t id ->
    data_free a t id = Some (a', t') -> treach2 a0 p a' t'
| t2_wal a t id a' t' :
    treach2 a0 p a t -> metaTotal a < 2^28 -> wal_alloc a t = Some (id, a', t') -> treach2 a0 p a' t'
| t2_meta a t n regs a' t' :
    treach2 a0 p a t -> 0 <= n < 2^28 -> metaTotal a < 2^28 ->
    meta_alloc_regions a t n = Some (regs, a', t') -> treach2 a0 p a' t'
| t2_mfree a t id :                 (* free of a meta page in use *)
    treach2 a0 p a t -> 2 <= id < a_end (data a) -> ~ inl id (Dset a) -> ~ inl id (Mset a) ->
    ~ In id (t_freed (tdata t)) -> treach2 a0 p a (meta_free t id).

Lemma treach2_treach a0 p a t : treach2 a0 p a t -> treach a0 p a t.
Proof.
  induction 1; [apply tr_init | eapply tr_alloc; eauto | eapply tr_free; eauto | eapply tr_wal; eauto
               | eapply tr_meta; eauto | apply tr_mfree; assumption].
Qed.

Theorem treach2_inv a0 p a t : InvQ a0 -> treach2 a0 p a t -> FullInv a0 a t /\ FreedInv a0 a t.
Proof.
  intros Q R. pose proof (q_inv0 _ Q) as I0.
  induction R; [|destruct IHR as [F Fr]; split ..].
  - split; [apply full_inv_init; exact I0 | apply freed_init; exact Q].
  - eapply full_alloc_step; eauto.
  - eapply freed_alloc_step; eauto.
  - eapply full_free_step; eauto.
  - eapply freed_free_step; eauto.
  - eapply full_wal_alloc_step; eauto.
  - eapply freed_wal_alloc_step; eauto.
  - eapply full_meta_alloc_step; eauto.
  - eapply freed_meta_alloc_step; eauto.
  - apply full_meta_free_step; exact F.
  - apply freed_meta_free_step; assumption.
Qed.

(* every state inside a transaction could itself be a quiescent state (nothing in use is in a free list) *)
Lemma tx_state_quiescent a0 a t : FullInv a0 a t -> FreedInv a0 a t -> InvQ a.
Proof.
  intros F R. constructor.
  - constructor; [exact (fi_data _ _ _ F) | exact (fi_mwf _ _ _ F) | exact (proj2 (fi_ends _ _ _ F)) | exact (fi_mbelow _ _ _ F)].
  - intros id H. destruct (fi_static _ _ _ F) as (_ & _ & _ & Hfl). rewrite Hfl in H.
    apply (fr_m _ _ _ R). right. exact H.
  - exact (fr_cap _ _ _ R).
Qed.

(* the free lists of the next transaction: the freed pages join them; [regs] are the new free-list pages *)
Lemma commit_tail a0 a1 t1 regs mt fr :
  FullInv a0 a1 t1 -> FreedInv a0 a1 t1 ->
  (forall id, inl id regs -> used a1 id /\ ~ In id (t_freed (tdata t1)) /\ ~ In id (t_freed (tmeta t1))) ->
  let newData := merge_region_lists (Dset a1) (ids_regions (t_freed (tdata t1))) in
  let newMeta := merge_region_lists (Mset a1) (ids_regions (t_freed (tmeta t1))) in
  InvQ {| maxPages := maxPages a1; pageSize := pageSize a1;
          meta := {| a_end := a_end (meta a1); a_free := {| avail := count_pages newMeta; fregions := newMeta |} |};
          metaTotal := mt;
          data := {| a_end := a_end (data a1); a_free := {| avail := count_pages newData; fregions := newData |} |};
          flRoot := fr; flPages := regs |}.
Proof.
  intros F R Hregs newData newMeta.
  destruct (fi_data _ _ _ F) as [[Wd _] Hbd Hed]. destruct (fi_mwf _ _ _ F) as [Wm _].
  destruct R as [Fd Fm [Sd Sm] Cp].
  destruct (ids_regions_spec _ 2 Sd) as (Wfd & Hfd & _). destruct (ids_regions_spec _ 2 Sm) as (Wfm & Hfm & _).
  destruct (merge_region_lists_spec (Dset a1) _ 2 Wd Wfd) as (WD & HD & _).
  { intros id H1 H2. apply Hfd, Fd in H2. tauto. }
  destruct (merge_region_lists_spec (Mset a1) _ 2 Wm Wfm) as (WM & HM & _).
  { intros id H1 H2. apply Hfm in H2. exact (proj2 (proj2 (Fm id (or_introl H2))) H1). }
  fold newData in WD, HD. fold newMeta in WM, HM. setoid_rewrite Hfd in HD. setoid_rewrite Hfm in HM.
  constructor; cbn [data meta a_end a_free fregions avail maxPages flPages]; [constructor; [constructor|..]|..];
    cbn [data meta a_end a_free fregions avail].
  - split; [exact WD | reflexivity].
  - intros id H. apply HD in H as [H|H]; [exact (Hbd _ H) | apply Fd in H; lia].
  - exact Hed.
  - split; [exact WM | reflexivity].
  - exact (proj2 (fi_ends _ _ _ F)).
  - intros id H. rewrite HD. apply HM in H as [H|H].
    + destruct (fi_mbelow _ _ _ F id H) as [A B]. split; [|exact B]. intros [X|X]; [exact (A X) | apply Fd in X; tauto].
    + destruct (Fm id (or_introl H)) as (A & B & C). split; [|lia]. intros [X|X]; [exact (B X)|].
      destruct (Fd id X) as (_ & _ & _ & _ & E). apply E. left. exact H.
  - intros id H. rewrite HD, HM. destruct (Hregs id H) as ((A & B & C) & D & E). tauto.
  - exact Cp.
Qed.

Lemma release_overflow_id l mx e : mx = 0 \/ e <= mx -> release_overflow l mx e = (l, 0).
Proof. intros H. unfold release_overflow. replace ((mx =? 0) || (e <=? mx)) with true by lia. reflexivity. Qed.

Lemma commit_ends_id nd nm mx dEnd mEnd : (mx = 0 \/ mEnd <= mx) -> (mx = 0 \/ dEnd <= mx) ->
  commit_ends nd nm mx dEnd mEnd = (nm, nd, dEnd, mEnd, 0, 0).
Proof.
  intros Cp Cd. unfold commit_ends. rewrite (release_overflow_id _ mx mEnd Cp).
  cbn [Z.ltb andb Z.compare]. rewrite (release_overflow_id _ mx dEnd Cd). destruct (_ <=? _);
  cbn [Z.ltb andb Z.compare]; rewrite !Z.sub_0_r; reflexivity.
Qed.

Lemma pred_add_count payload p r : p_count p <= p_count (pred_add payload p r).
Proof. unfold pred_add. destruct (p_avail p <? region_enc_size r); cbn; lia. Qed.
Lemma pred_add_all_count payload : forall l p, p_count p <= p_count (pred_add_all payload p l).
Proof.
  unfold pred_add_all. induction l as [|r l IH]; intros p; cbn [fold_left]; [lia|].
  pose proof (pred_add_count payload p r). specialize (IH (pred_add payload p r)). lia.
Qed.

(* the number of free-list pages a commit asks for (the page count prediction of fileCommitAlloc): the let-chain
   of commit_alloc word for word, so that the two are identified by conversion *)
Definition commit_n (a : allocst) (t : txst) : Z :=
  let dataFreed := ids_regions (t_freed (tdata t)) in
  let metaFreed := ids_regions (t_freed (tmeta t)) in
  let payload := pageSize a - listPageHeaderSize in
  let p0 := {| p_count := 0; p_avail := 0 |} in
  let p1 := pred_add_all payload (pred_add_all payload (pred_add_all payload (pred_add_all payload p0 dataFreed) metaFreed)
                                    (fregions (a_free (data a)))) (fregions (a_free (meta a))) in
  let dummy := {| rid := 1; rcount := u32max |} in
  let p2 := if 0 <? p_count p1 then pred_add payload (pred_add payload p1 dummy) dummy else p1 in
  p_count p2.

Lemma commit_n_nonneg a t : 0 <= commit_n a t.
Proof.
  unfold commit_n. cbv zeta.
  set (payload := pageSize a - listPageHeaderSize).
  set (p1 := pred_add_all payload _ (fregions (a_free (meta a)))).
  assert (H1: 0 <= p_count p1).
  { unfold p1. repeat (etransitivity; [|apply pred_add_all_count]). cbn. lia. }
  destruct (0 <? p_count p1); [|exact H1].
  etransitivity; [|apply pred_add_count]. etransitivity; [|apply pred_add_count]. exact H1.
Qed.

(* fileCommitAlloc allocates the pages of the new free list, if it needs any: they are in use and not freed *)
Lemma commit_pages a0 a t n regs a1 t1 :
  Inv0 a0 -> FullInv a0 a t -> FreedInv a0 a t -> metaTotal a < 2^28 -> 0 <= n < 2^28 ->
  (if 0 <? n then meta_alloc_regions a t n else Some ([], a, t)) = Some (regs, a1, t1) ->
  FullInv a0 a1 t1 /\ FreedInv a0 a1 t1 /\
  t_freed (tdata t1) = t_freed (tdata t) /\ t_freed (tmeta t1) = t_freed (tmeta t) /\
  (forall id, inl id regs -> used a1 id /\ ~ In id (t_freed (tdata t1)) /\ ~ In id (t_freed (tmeta t1))).
Proof.
  intros I0 F R Htot Hn. destruct (0 <? n).
  - intros E. destruct (full_meta_alloc_step a0 a t n regs a1 t1 I0 F Hn Htot E) as (F1 & Hr1).
    destruct (freed_meta_alloc_step a0 a t n regs a1 t1 I0 F R Hn Htot E) as (R1 & Q1 & Q2 & Hr2).
    split; [exact F1|]. split; [exact R1|]. split; [exact Q1|]. split; [exact Q2|]. rewrite Q1, Q2.
    intros id H. destruct (Hr1 id H) as (_ & B & C). destruct (Hr2 id H) as (A & D & E1). unfold prot in E1. unfold used. tauto.
  - intros [= <- <- <-]. split; [exact F|]. split; [exact R|]. split; [reflexivity|]. split; [reflexivity|].
    intros id H. destruct (inl_nil _ H).
Qed.

Theorem commit_alloc_inv a0 a t c a2 t2 :
  InvQ a0 -> FullInv a0 a t -> FreedInv a0 a t -> metaTotal a < 2^28 -> commit_n a t < 2^28 ->
  commit_alloc a t true = COk c a2 t2 -> InvQ (commit_apply a2 c).
Proof.
  intros Q F R Htot Hn. pose proof (commit_n_nonneg a t) as Hn0.
  unfold commit_alloc, commit_n in *. cbn [negb]. cbv zeta in *. set (n := p_count _) in *.
  destruct (if 0 <? n then _ else _) as [[[regs a1] t1]|] eqn:Ea; [|discriminate].
  destruct (commit_pages a0 a t n regs a1 t1 (q_inv0 _ Q) F R Htot (conj Hn0 Hn) Ea) as (F1 & R1 & Q1 & Q2 & Hregs).
  destruct (_ && _); [discriminate|].
  pose proof (fr_cap _ _ _ R1) as Cp. destruct (fi_ends _ _ _ F1) as [_ Fe].
  rewrite (commit_ends_id _ _ _ _ _ Cp) by (destruct Cp; [left; assumption | right; lia]).
  intros [= <- <- _]. unfold commit_apply. cbn [c_updated c_metaEnd c_metaList c_dataEnd c_dataList c_ovfFreed c_allocRegions].
  rewrite <- Q1, <- Q2. exact (commit_tail a0 a1 t1 regs _ _ F1 R1 Hregs).
Qed.

(* the commit frees the free-list pages of the committed state *)
Lemma meta_free_ids_inv a0 a : forall ids t,
  (forall id, In id ids -> inl id (flPages a0)) ->
  FullInv a0 a t -> FreedInv a0 a t ->
  FullInv a0 a (fold_left meta_free ids t) /\ FreedInv a0 a (fold_left meta_free ids t).
Proof.
  induction ids as [|id ids IH]; intros t Hin F R; cbn [fold_left]; [split; assumption|].
  assert (Hp: prot a0 t id) by (right; apply Hin; left; reflexivity).
  destruct (fr_m _ _ _ R id Hp) as (A & B & C).
  apply IH.
  - intros x Hx. apply Hin. right. exact Hx.
  - apply full_meta_free_step. exact F.
  - apply freed_meta_free_step; try assumption.
    intros X. destruct (fr_d _ _ _ R id X) as (_ & _ & _ & _ & E). exact (E Hp).
Qed.

Theorem commit_step_inv a0 a t extra a' :
  InvQ a0 -> FullInv a0 a t -> FreedInv a0 a t -> metaTotal a < 2^28 ->
  commit_n a (if tx_updated t then meta_free_regions t (flPages a) else t) < 2^28 ->
  commit_step a t extra = CoOk a' -> InvQ a'.
Proof.
  intros Q F R Htot Hn. unfold commit_step.
  set (t1 := if tx_updated t then meta_free_regions t (flPages a) else t) in *.
  assert (H1: FullInv a0 a t1 /\ FreedInv a0 a t1).
  { unfold t1. destruct (tx_updated t); [|split; assumption]. unfold meta_free_regions.
    apply meta_free_ids_inv; try assumption.
    intros id H. apply regions_ids_in in H. destruct (fi_static _ _ _ F) as (_ & _ & _ & Hfl). rewrite <- Hfl. exact H. }
  destruct H1 as [F1 R1].
  destruct (tx_updated t || extra) eqn:Eu.
  - destruct (commit_alloc a t1 true) as [|a2 t2|c a2 t2] eqn:Ec; try discriminate.
    intros [= <-]. eapply commit_alloc_inv; eauto.
  - unfold commit_alloc. cbn [negb]. intros [= <-]. unfold commit_apply. cbn [c_updated].
    eapply tx_state_quiescent; eauto.
Qed.

Inductive hreach : allocst -> Prop :=
| h_init a : InvQ a -> hreach a
| h_commit a0 p a t extra a' :
    hreach a0 -> treach2 a0 p a t -> metaTotal a < 2^28 ->
    commit_n a (if tx_updated t then meta_free_regions t (flPages a) else t) < 2^28 ->
    commit_step a t extra = CoOk a' -> hreach a'
| h_abort a0 p a t :
    hreach a0 -> treach2 a0 p a t -> a_end (meta a) - a_end (data a0) < 2^32 -> hreach (rollback a t).

(* At every quiescent point of every history of committed and aborted transactions: both free lists are
   well-formed, disjoint, below the end of the data area; the free-list pages are in neither list; the end
   markers respect the size limit. *)
Theorem hreach_inv a : hreach a -> InvQ a.
Proof.
  induction 1 as [a Q | a0 p a t extra a' H0 IH R Htot Hn E | a0 p a t H0 IH R Hs].
  - exact Q.
  - destruct (treach2_inv a0 p a t IH R) as [F Fr]. eapply commit_step_inv; eauto.
  - pose proof (q_inv0 _ IH) as I0.
    pose proof (rollback_exact_full a0 p a t I0 (treach2_treach _ _ _ _ R) Hs) as H. cbv zeta in H.
    destruct H as (E1 & E2 & E3 & E4 & E5 & E6 & Wm & Sm & Am & E7 & Wd & Sd & Ad).
    destruct I0 as [[Wd0 Hb0 He0] Wm0 Hends0 Hmb0].
    constructor; [constructor; [constructor|..]|..]; unfold EndInv, below; rewrite ?E1, ?E4, ?E6, ?E7;
      try setoid_rewrite Sd; try setoid_rewrite Sm; try assumption; [exact (q_fl _ IH) | exact (q_cap _ IH)].
Qed.

Corollary history_tx_inv a0 p a t : hreach a0 -> treach2 a0 p a t -> FullInv a0 a t /\ FreedInv a0 a t.
Proof. intros H R. apply (treach2_inv a0 p a t); [apply hreach_inv; exact H | exact R]. Qed.
