(* metaManager.tryGrow with the overflow area enabled (Tx option EnableOverflowArea): when the data area cannot
   provide the pages the meta area needs, ALL pages the data area still has are moved to the meta area and the
   rest is taken from the end of the file, beyond the size limit. The pages taken there are fresh: at or beyond
   both end markers, hence in no list and never handed out before. A rollback right after such a growth restores
   the allocator. *)
From VF Require Import Region Freelist Alloc RegionProofs AllocProofs MetaAllocProofs.
From Coq Require Import Lia ZifyBool.

(* what the overflow branch of tryGrow returns: everything the data area has left goes to the meta area (a2, t2),
   then the missing pages [reg] are appended at the end of the file *)
Lemma try_grow_overflow_eq a t count regs cnt a1 t1 a2 t2 :
  data_alloc_regions a t (data_avail a) = (regs, cnt, a1, t1) -> transfer_all a1 t1 regs = (a2, t2) ->
  maxPages a2 <> 0 -> count <> 0 -> 0 < count - data_avail a < 2^32 ->
  let req := count - data_avail a in
  let reg := {| rid := a_end (meta a2); rcount := req |} in
  try_grow a t count true =
  (true,
   set_meta a2 {| a_end := a_end (meta a2) + req; a_free := fl_add_region (a_free (meta a2)) reg |} (metaTotal a2 + req),
   tx_stats (tx_with t2 (moveToMeta t2) (tdata t2) (ta_new (tmeta t2) (regions_ids [reg]))) 0 0 0 0 req 0 req).
Proof.
  intros Ea Et Hmx Hc Hreq. unfold try_grow. rewrite Ea, Et, area_regions_one by exact Hreq.
  replace (count =? 0) with false by lia. replace (data_avail a <? count) with true by lia.
  replace (0 <? count - data_avail a) with true by lia.
  cbn [negb fold_left maxPages set_meta]. replace (maxPages a2 =? 0) with false by lia. reflexivity.
Qed.

Theorem try_grow_overflow_spec a t count ok a' t' :
  DataInv a -> wff 2 (a_free (meta a)) ->
  (forall id, inl id (Mset a) -> ~ inl id (Dset a) /\ id < a_end (meta a) /\ (id < a_end (data a) \/ maxPages a <= id)) ->
  a_end (data a) <= a_end (meta a) ->
  0 < maxPages a -> 0 < count < 2^32 -> data_avail a < count ->
  try_grow a t count true = (ok, a', t') ->
  let av := data_avail a in
  let required := count - av in
  exists regs E,
    ok = true /\
    count_pages regs = av /\ wfl 2 regs /\
    (forall id, inl id regs -> inl id (Dset a) \/ a_end (data a) <= id) /\
    (forall id, inl id regs -> ~ inl id (Dset a') /\ id < a_end (data a')) /\
    (forall id, inl id (Dset a') -> inl id (Dset a)) /\
    DataInv a' /\
    a_end (meta a) <= E /\ a_end (data a') <= E /\ E <= Z.max (a_end (meta a)) (maxPages a) /\
    a_end (data a') <= Z.max (a_end (data a)) (maxPages a) /\
    a_end (meta a') = E + required /\ 0 < required /\
    wff 2 (a_free (meta a')) /\
    (forall id, inl id (Mset a') <-> inl id (Mset a) \/ inl id regs \/ E <= id < E + required) /\
    metaTotal a' = metaTotal a + count /\
    moveToMeta t' = moveToMeta t ++ regs /\
    st_ovf_alloc t' = st_ovf_alloc t + required /\
    maxPages a' = maxPages a /\
    (exists regs1 regs2, regs = regs1 ++ regs2 /\ wfl 2 regs1 /\
       (forall id, inl id regs1 <-> inl id (Dset a) /\ ~ inl id (Dset a')) /\
       (forall id, inl id regs2 -> a_end (data a) <= id) /\
       t_allocated (tdata t') = set_add_all (regions_ids regs1) (t_allocated (tdata t))) /\
    t_end (tdata t') = t_end (tdata t) /\ t_end (tmeta t') = t_end (tmeta t) /\
    t_allocated (tmeta t') = t_allocated (tmeta t) /\
    pageSize a' = pageSize a /\ flRoot a' = flRoot a /\ flPages a' = flPages a.
Proof.
  intros ID Wm Hmd Hends Hmx Hc Hav Eg. cbv zeta.
  pose proof (data_avail_nonneg a ID) as Hav0. set (av := data_avail a) in *.
  (* the data area hands out all it has to the meta area ... *)
  destruct (data_alloc_regions a t av) as [[[regs n] a1] t1] eqn:Ea.
  destruct (data_alloc_regions_take a t av regs n a1 t1 ID ltac:(lia) Ea)
    as [(Hlt & _)|(_ & _ & ra & rn & -> & T0 & Hrn & Hcnt & _)]; [unfold av in Hlt; lia|].
  destruct (transfer_all a1 t1 (ra ++ rn)) as [a2 t2] eqn:Et.
  assert (T: TakeEff a t a2 t2 ra rn (ra ++ rn)).
  { apply (take_transfer _ _ _ _ _ _ _ _ T0 Wm); [|exact Et]. intros id H. destruct (Hmd id H) as (A & _ & [B|B]); auto. }
  clear T0. destruct (te_static T) as (Y1 & Y2 & Y3 & Y4). destruct (te_tx T) as (X1 & X2 & _ & _ & X5 & _).
  pose proof (te_limit T Hmx) as [[L1 L2] _]. pose proof (te_mend T Hends) as Hme. pose proof (te_end T) as Hde.
  pose proof (di_end _ (te_data T)) as He2.
  (* ... and the rest is appended to the file *)
  rewrite (try_grow_overflow_eq a t count _ n a1 t1 a2 t2 Ea) in Eg by (assumption || lia). clear Ea Et. injection Eg as <- <- <-.
  fold av. set (E := a_end (meta a2)) in *. set (required := count - av) in *.
  destruct (fl_add_region_spec (a_free (meta a2)) {| rid := E; rcount := required |} 2 (te_mwf T Wm)) as (Wm3 & Hset3 & _);
    [cbn [rid]; lia | cbn [rcount]; lia | |].
  { intros id H Hm. unfold inr, rend in H. cbn [rid rcount] in H. apply (te_meta T) in Hm as [Hm|Hm].
    - destruct (Hmd _ Hm) as (_ & Hlt & _). lia.
    - destruct (te_gone T Hm) as [_ Hlt]. lia. }
  destruct (proj1 (wfl_app _ _ _) (te_wf T)) as (hi & _ & W1 & _).
  assert (a_end (meta a) <= E /\ a_end (data a2) <= E /\ 0 < required) as (N1 & N2 & N3) by (clear - Hme Hde Hav Hends; lia).
  exists (ra ++ rn), E.
  cbn [data meta a_end a_free metaTotal maxPages pageSize flRoot flPages set_meta
       moveToMeta st_ovf_alloc tdata tmeta tx_stats tx_with ta_new t_end t_allocated].
  rewrite X1, X2. split_all; try reflexivity; try assumption.
  - exact (te_wf T).
  - intros id H. apply inl_app in H as [H|H]; [left; exact (te_ra T H) | exact (te_rn T H)].
  - exact (te_gone T).
  - exact (te_sub T).
  - destruct (te_data T). constructor; assumption.
  - intros id. rewrite Hset3, (te_meta T). unfold inr, rend. cbn [rid rcount]. clear. tauto.
  - rewrite (te_total T), Hcnt. unfold required. ring.
  - exact (te_moved T).
  - exists ra, rn. split_all; [reflexivity | exact W1 | | exact Hrn | exact (te_alloc T)].
    intros id. split; [intros H; split; [exact (te_ra T H) | apply (te_gone T), inl_app; left; exact H]|].
    intros [Hd Hn]. destruct (te_cover T Hd) as [H|H]; [|contradiction].
    apply inl_app in H as [H|H]; [exact H|]. apply Hrn in H. apply (di_below _ ID) in Hd. lia.
Qed.

(* C07, the repair of D6: a transaction with the overflow area enabled that made the meta area grow beyond the end
   of the file and is then rolled back leaves the allocator as it found it: end markers, meta-area size, and both
   free lists as sets of pages with their counts. *)
Theorem rollback_after_overflow_growth a0 p count ok a t :
  DataInv a0 -> wff 2 (a_free (meta a0)) ->
  (forall id, inl id (Mset a0) -> ~ inl id (Dset a0) /\ id < a_end (meta a0) /\ (id < a_end (data a0) \/ maxPages a0 <= id)) ->
  a_end (data a0) <= a_end (meta a0) ->
  0 < maxPages a0 -> 0 < count < 2^32 -> data_avail a0 < count ->
  Z.max (a_end (meta a0)) (maxPages a0) + count - a_end (data a0) < 2^32 ->
  try_grow a0 (make_tx a0 true p) count true = (ok, a, t) ->
  restored a0 (rollback a t).
Proof.
  intros ID0 MW0 MB0 ME0 Hmx Hc Hav Hsmall Eg.
  destruct (try_grow_overflow_spec a0 _ count ok a t ID0 MW0 MB0 ME0 Hmx Hc Hav Eg)
    as (regs & E & _ & Hcnt & Wr & Hfrom & Hgone & Hsub & ID & HE1 & HE2 & HE4 & HE5 & HE3 & Hreq & Wm & Hmset & Htot & Hmv & Hovf & Hmp &
        (regs1 & regs2 & Hsplit & W1 & H1 & H2 & HA) & Td & Tm & Tma & Hps & Hfr & Hfp).
  cbn [make_tx moveToMeta st_ovf_alloc tdata tmeta t_end t_allocated app] in Hmv, Hovf, HA, Td, Tm, Tma.
  pose proof (di_below _ ID0) as Hbd0. pose proof (di_end _ ID0) as He0. pose proof (data_avail_nonneg a0 ID0) as Hav0.
  assert (Hin1: forall id, In id (t_allocated (tdata t)) <-> inl id regs1).
  { intros id. rewrite HA, add_regions_in. cbn [In]. clear. tauto. }
  destruct (rollback_sets a t ID Wm) as (R1 & R2 & R3 & R4 & R5 & R6 & R7 & R8 & R9 & R10 & R11); try lia.
  - intros id H. apply Hmset in H as [H|[H|H]]; [destruct (MB0 _ H) as (_ & B & _) | destruct (Hgone _ H) |]; lia.
  - rewrite Tma. constructor.
  - rewrite HA. apply add_regions_sorted; [|constructor]. intros id. exact (wfl_lower _ _ id W1).
  - rewrite Hmv. intros id H. split; [exact (wfl_lower _ _ _ Wr H) | apply Hgone, H].
  - rewrite Tma. intros id [].
  - intros id H _. apply Hin1, H1 in H. apply H.
  - rewrite Tm, Tma, Hmv in R8. rewrite Td, Hmv in R11. rewrite Tm in R6. rewrite Td in R9.
    assert (Hm: forall id, inl id (Mset (rollback a t)) <-> inl id (Mset a0)).
    { intros id. rewrite R8, Hmset. cbn [In]. split.
      - intros [[Hlt [[H|[H|H]]|[]]] Hn]; [exact H | contradiction | lia].
      - intros H. destruct (MB0 _ H) as (A & B & C). split; [split; [exact B | left; left; exact H]|]. intros Hr.
        destruct (Hfrom _ Hr) as [D|D]; [exact (A D)|]. destruct (Hgone _ Hr). lia. }
    assert (Hd: forall id, inl id (Dset (rollback a t)) <-> inl id (Dset a0)).
    { intros id. rewrite R11, Hin1, H1. split.
      - intros [Hlt [H|[H|H]]]; [exact (Hsub _ H) | apply H|]. destruct (Hfrom _ H); [assumption | lia].
      - intros H. split; [exact (Hbd0 _ H)|]. destruct (classic_inl id (Dset a)) as [Hy|Hn]; [left; exact Hy | right; left; split; assumption]. }
    unfold restored. split_all; try congruence; try assumption.
    + rewrite R5, Htot, Hovf, Hmv, Hcnt. lia.
    + exact (same_set_avail 2 _ _ R7 MW0 Hm).
    + exact (same_set_avail 2 _ _ R10 (di_wf _ ID0) Hd).
Qed.

(* non-vacuity: a bounded file of 64 pages, 4 pages left in the data area, 2 in its free list; a growth by 10
   pages takes those 6 and appends 4 behind the limit; the rollback restores the state exactly *)
Definition ovf_ex : allocst :=
  {| maxPages := 64; pageSize := 1024;
     meta := {| a_end := 60; a_free := {| avail := 1; fregions := [{| rid := 5; rcount := 1 |}] |} |};
     metaTotal := 4;
     data := {| a_end := 60; a_free := {| avail := 2; fregions := [{| rid := 10; rcount := 2 |}] |} |};
     flRoot := 3; flPages := [{| rid := 3; rcount := 1 |}] |}.
Example ovf_ex_grow_and_rollback :
  data_avail ovf_ex = 6 /\
  (let '(ok, a, t) := try_grow ovf_ex (make_tx ovf_ex true 0) 10 true in
   ok = true /\ a_end (meta a) = 68 /\ a_end (data a) = 64 /\ metaTotal a = 14 /\ st_ovf_alloc t = 4 /\
   Mset a = [{| rid := 5; rcount := 1 |}; {| rid := 10; rcount := 2 |}; {| rid := 60; rcount := 8 |}] /\
   rollback a t = ovf_ex).
Proof. vm_compute. repeat split. Qed.
