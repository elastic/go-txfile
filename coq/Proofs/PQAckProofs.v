(* What an ACK frees: exactly the pages before the page in which the last ACKed event starts. *)
From VF Require Import PQAck.
From Coq Require Import Lia ZifyBool.

Inductive mono : list nat -> Prop :=
| mono_nil : mono []
| mono_cons x l : (forall y, In y l -> x <= y) -> mono l -> mono (x :: l).

Lemma mono_nth l : mono l -> forall i j, i <= j < length l -> nth i l 0 <= nth j l 0.
Proof.
  induction 1 as [|x l Hx _ IH]; intros i j Hij; cbn [length] in Hij; [lia|].
  destruct j as [|j]; [replace i with 0 by lia; reflexivity|].
  destruct i as [|i]; cbn [nth]; [apply Hx, nth_In | apply IH]; lia.
Qed.

(* cnt_le ps k and cnt_lt ps k are both [length (filter f ps)] *)
Section Filter.
Variable f : nat -> bool.

Lemma filter_none l : (forall y, In y l -> f y = false) -> filter f l = [].
Proof.
  induction l as [|x l IH]; intros H; [reflexivity|]. cbn [filter].
  rewrite (H x (or_introl eq_refl)). apply IH. intros y Hy. apply H. right. exact Hy.
Qed.

Lemma filter_all l : (forall y, In y l -> f y = true) -> filter f l = l.
Proof.
  induction l as [|x l IH]; intros H; [reflexivity|]. cbn [filter].
  rewrite (H x (or_introl eq_refl)), IH; [reflexivity|]. intros y Hy. apply H. right. exact Hy.
Qed.

Lemma filter_cons_length x l : length (filter f (x :: l)) = (if f x then 1 else 0) + length (filter f l).
Proof. cbn [filter]. destruct (f x); reflexivity. Qed.

Lemma filter_snoc_length l x : length (filter f (l ++ [x])) = length (filter f l) + (if f x then 1 else 0).
Proof. rewrite filter_app, app_length. cbn [filter]. destruct (f x); reflexivity. Qed.

(* In a non-decreasing list the elements that pass a test which, once it fails, fails for everything larger
   (here: <= k, < k) are exactly a prefix. *)
Hypothesis f_up : forall x y, x <= y -> f x = false -> f y = false.

Lemma filter_prefix l i : mono l -> i < length l -> (f (nth i l 0) = true <-> i < length (filter f l)).
Proof.
  intros M. revert i. induction M as [|x l Hx _ IH]; intros i Hi; [cbn in Hi; lia|].
  destruct (f x) eqn:E.
  - cbn [filter]. rewrite E. destruct i as [|i]; cbn [nth length]; [split; [lia | intros _; exact E]|].
    cbn [length] in Hi. rewrite IH by lia. lia.
  - assert (Hall: forall y, In y (x :: l) -> f y = false).
    { intros y [<-|Hy]; [exact E | exact (f_up x y (Hx y Hy) E)]. }
    rewrite (filter_none _ Hall), (Hall _ (nth_In _ 0 Hi)). cbn [length]. split; [discriminate | lia].
Qed.
End Filter.

Lemma cnt_le_cons x l k : cnt_le (x :: l) k = (if x <=? k then 1 else 0) + cnt_le l k.
Proof. exact (filter_cons_length (fun p => p <=? k) x l). Qed.
Lemma cnt_lt_cons x l k : cnt_lt (x :: l) k = (if x <? k then 1 else 0) + cnt_lt l k.
Proof. exact (filter_cons_length (fun p => p <? k) x l). Qed.

Lemma cnt_le_snoc l x k : cnt_le (l ++ [x]) k = cnt_le l k + (if x <=? k then 1 else 0).
Proof. exact (filter_snoc_length (fun p => p <=? k) l x). Qed.
Lemma cnt_lt_snoc l x k : cnt_lt (l ++ [x]) k = cnt_lt l k + (if x <? k then 1 else 0).
Proof. exact (filter_snoc_length (fun p => p <? k) l x). Qed.

Lemma cnt_le_all l k : (forall y, In y l -> y <= k) -> cnt_le l k = length l.
Proof. intros H. unfold cnt_le. rewrite filter_all; [reflexivity|]. intros y Hy. apply Nat.leb_le, H, Hy. Qed.
Lemma cnt_lt_all l k : (forall y, In y l -> y < k) -> cnt_lt l k = length l.
Proof. intros H. unfold cnt_lt. rewrite filter_all; [reflexivity|]. intros y Hy. apply Nat.ltb_lt, H, Hy. Qed.

Lemma cnt_le_prefix l k i : mono l -> i < length l -> (nth i l 0 <= k <-> i < cnt_le l k).
Proof.
  intros M Hi. rewrite <- Nat.leb_le. apply (filter_prefix (fun p => p <=? k)); [|exact M | exact Hi].
  intros x y. lia.
Qed.
Lemma cnt_lt_prefix l k i : mono l -> i < length l -> (nth i l 0 < k <-> i < cnt_lt l k).
Proof.
  intros M Hi. rewrite <- Nat.ltb_lt. apply (filter_prefix (fun p => p <? k)); [|exact M | exact Hi].
  intros x y. lia.
Qed.

Lemma starts_in_spec ps k : starts_in ps k = true <-> In k ps.
Proof.
  unfold starts_in. rewrite existsb_exists. split.
  - intros (x & Hx & E). apply Nat.eqb_eq in E. subst. exact Hx.
  - intros H. exists k. split; [exact H | apply Nat.eqb_refl].
Qed.

Lemma starts_in_snoc ps x k : starts_in (ps ++ [x]) k = starts_in ps k || (k =? x).
Proof. unfold starts_in. rewrite existsb_app. cbn [existsb]. rewrite orb_false_r. reflexivity. Qed.

Section Ack.
Variables (ps : list nat) (h T N : nat).
Hypothesis Hmono : mono ps.
Hypothesis Hrange : forall p, In p ps -> h <= p <= T.
Hypothesis HN : 1 <= N <= length ps.

Let estar := nth (N - 1) ps 0.       (* the page in which the last ACKed event starts *)

Lemma estar_in : In estar ps.
Proof. apply nth_In. lia. Qed.

Lemma keep_iff k : N <= cnt_le ps k <-> estar <= k.
Proof. unfold estar. rewrite (cnt_le_prefix ps k (N - 1) Hmono ltac:(lia)). lia. Qed.

Lemma collect_spec : forall fuel k,
  k <= estar -> T - k < fuel -> collect fuel ps T N k = (estar, false).
Proof.
  pose proof (Hrange _ estar_in) as [_ HeT].
  induction fuel as [|f IH]; intros k Hk Hf; [lia|]. cbn [collect].
  pose proof (keep_iff k) as Hkeep. destruct (Nat.eq_dec k estar) as [->|Hne].
  - rewrite (proj2 (starts_in_spec ps estar) estar_in).
    replace (N <=? cnt_le ps estar) with true by lia. rewrite orb_true_r. reflexivity.
  - replace (k =? T) with false by lia. replace (N <=? cnt_le ps k) with false by lia.
    destruct (starts_in ps k); apply IH; lia.
Qed.

(* C12: collectFreePages keeps estar and the pages behind it, and never takes the "clean all" exit *)
Theorem ack_pages_spec : ack_pages ps h T N = (estar, false).
Proof. apply collect_spec; [apply (Hrange _ estar_in) | lia]. Qed.

(* no freed page holds a byte of the last ACKed event or of any event after it (an event lies in the page its
   header starts in and in later pages), and the write page is never freed *)
Corollary ack_frees_only_acked_pages :
  let kept := fst (ack_pages ps h T N) in
  h <= kept <= T /\ forall i, N - 1 <= i < length ps -> kept <= nth i ps 0.
Proof.
  rewrite ack_pages_spec. cbn [fst]. split; [apply (Hrange _ estar_in)|].
  intros i Hi. apply (mono_nth ps Hmono). lia.
Qed.

(* the walk that finds the new read position starts at the first event of the kept page; all events it skips
   start in that page (no page change between two of their headers), and it skips exactly up to event N *)
Corollary ack_skips_spec :
  let kept := fst (ack_pages ps h T N) in
  cnt_lt ps kept + ack_skips ps kept N = N /\
  forall i, cnt_lt ps kept <= i < N -> nth i ps 0 = kept.
Proof.
  rewrite ack_pages_spec. cbn [fst]. unfold ack_skips.
  (* event N-1 starts in estar, not before it: it is not among the first cnt_lt ps estar *)
  assert (Hle: cnt_lt ps estar <= N - 1).
  { apply Nat.nlt_ge. rewrite <- (cnt_lt_prefix ps estar (N - 1) Hmono) by lia. apply Nat.lt_irrefl. }
  split; [lia|]. intros i Hi. apply Nat.le_antisymm.
  - apply (mono_nth ps Hmono). lia.
  - apply Nat.nlt_ge. rewrite (cnt_lt_prefix ps estar i Hmono) by lia. lia.
Qed.
End Ack.
