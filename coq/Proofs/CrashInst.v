(* Instantiation of the abstract crash theorem with the concrete header validation, the concrete
   recovery (both page chains + all protected pages) and the modular transaction id order. *)
From VF Require Import Monitor Crash PagesProofs MetaProofs.
From Coq Require Import Lia ZifyBool.

Lemma chase_frame_meta fuel (d d' : pdisk) h st fp :
  chase fuel d h = Some (st, fp) -> (forall p, In p fp -> d' p = d p) -> chase fuel d' h = Some (st, fp).
Proof.
  unfold chase. rewrite !read_wal_is_chain, !read_freelist_is_chain.
  destruct (read_chain _ fuel d (h_wal h)) as [[wids wes]|] eqn:Ew; [|discriminate].
  destruct (read_chain _ fuel d (h_freelist h)) as [[fids fes]|] eqn:Ef; [|discriminate].
  destruct (split_entries fes) as [mf df] eqn:Es. intros [= <- <-] Hag.
  rewrite (read_chain_frame _ _ _ d' _ _ _ Ew), (read_chain_frame _ _ _ d' _ _ _ Ef), Es
    by (intros p Hp; apply Hag, in_or_app; auto).
  reflexivity.
Qed.

Theorem chase_full_frame fuel (d d' : cdisk) h v fp :
  chase_full fuel d h = Some (v, fp) -> (forall p, In p fp -> d' p = d p) -> chase_full fuel d' h = Some (v, fp).
Proof.
  unfold chase_full.
  destruct (chase fuel d h) as [[st mfp]|] eqn:Ec; [|discriminate].
  destruct (negb (all_ge2 mfp)) eqn:Eg; [discriminate|].
  intros [= <- <-] Hag.
  rewrite (chase_frame_meta _ _ d' _ _ _ Ec), Eg by (intros p Hp; apply Hag, in_or_app; auto).
  do 3 f_equal. apply map_ext_in. intros p Hp. apply Hag, in_or_app. auto.
Qed.

Theorem chase_full_ge2 fuel (d : cdisk) h v fp :
  chase_full fuel d h = Some (v, fp) -> forall p, In p fp -> 2 <= p.
Proof.
  unfold chase_full.
  destruct (chase fuel d h) as [[st mfp]|]; [|discriminate].
  destruct (negb (all_ge2 mfp)) eqn:Eg; [discriminate|].
  intros [= <- <-] p Hp. apply in_app_or in Hp as [Hp|Hp].
  - unfold all_ge2 in Eg. apply negb_false_iff in Eg. rewrite forallb_forall in Eg. specialize (Eg _ Hp). lia.
  - apply filter_In in Hp as [_ Hp]. unfold protected_page in Hp.
    repeat (apply andb_prop in Hp as [Hp _]). lia.
Qed.

Definition older_rel (t' t : Z) : Prop := txid_newer t t' = true /\ txid_newer t' t = false.

Lemma nxt_txid_newer t : txid_newer (nxt_txid t) t = true /\ txid_newer t (nxt_txid t) = false.
Proof. exact (txid_newer_later t 1 (conj eq_refl eq_refl)). Qed.

Definition MInv (fuel : nat) : mon -> Prop :=
  Inv cell header view hdr_of (chase_full fuel) nxt_txid older_rel.

Theorem mon_init_inv fuel base m : mon_init fuel base = Some m -> MInv fuel m.
Proof.
  (* what [pick], the local function of mon_init that tries one slot, returns satisfies the invariant *)
  cbv delta [mon_init]. cbv beta.
  match goal with |- (let pick := ?f in _) = _ -> _ => assert (Hpick : forall a m0, f a = Some m0 -> MInv fuel m0) end.
  { intros a m0. destruct (hdr_of (base (slotp a))) as [[t h]|] eqn:Eh; [|discriminate].
    destruct (match hdr_of (base (slotp (negb a))) with None => true | Some (t', _) => older_txid t' t end) eqn:Eo; [|discriminate].
    destruct (chase_full fuel base h) as [[v fp]|] eqn:Ec; [|discriminate].
    intros [= <-]. split; cbn; [eauto|]. split; [|constructor]. unfold older_or_invalid.
    destruct (hdr_of (base (slotp (negb a)))) as [[t' h']|]; [|exact I].
    apply andb_prop in Eo as [E1 E2%negb_true_iff]. exact (conj E1 E2). }
  cbv zeta. intros H.
  match type of H with match ?x with _ => _ end = _ => destruct x eqn:E1 end; [injection H as <-|]; eauto.
Qed.

(* For EVERY trace accepted by the monitor, for EVERY crash point (prefix of the trace) and EVERY
   subset of the page writes issued since the last completed sync that reaches the disk (a torn
   header write counts as an invalid header): recovery yields exactly the view of the last commit
   whose Commit returned, or - only while a commit is in flight - the complete view of that commit.
   The view contains the allocator state, the mapping, the root and the content of every page a
   reader of that state can reach. *)
Theorem crash_atomic_concrete fuel evs m0 m :
  MInv fuel m0 -> mon_run fuel m0 evs = Some m ->
  forall ws, crashsub cell header hdr_of (pend m) ws ->
  mon_recover fuel (apply cell ws (dd m)) = Some (cst m) \/
  (exists c h v fp, infl m = Some (c, h, v, fp) /\ mon_recover fuel (apply cell ws (dd m)) = Some v).
Proof.
  exact (crash_atomic _ _ _ _ _ (chase_full_frame fuel) (chase_full_ge2 fuel) _ _ older_rel
           (fun _ _ Ho => Ho) nxt_txid_newer evs m0 m).
Qed.

(* with mon_init_inv: the crash theorem applies again to a file that was recovered and re-initialised *)
Theorem mon_step_inv fuel m e m' : MInv fuel m -> mon_step fuel m e = Some m' -> MInv fuel m'.
Proof.
  exact (step_inv _ _ _ _ _ (chase_full_frame fuel) (chase_full_ge2 fuel) _ older_rel nxt_txid_newer).
Qed.

(* [select] (CrashModel) instantiated with the concrete header validation and the modular txid order picks
   the slot [choose] (Model/Meta.v, the function validated against readValidMeta) picks on the same two
   header pages, and recovers from that header. *)
Theorem select_is_choose (d : cdisk) pg0 pg1 :
  d 0 = Some pg0 -> d 1 = Some pg1 ->
  match choose pg0 pg1 with
  | SelErr => select cell header hdr_of txid_newer d = None
  | SelOk a t =>
      select cell header hdr_of txid_newer d =
      Some (negb (a =? 0), t, decode_header (if a =? 0 then pg0 else pg1))
  end.
Proof.
  intros H0 H1. unfold select, choose, hdr_of. rewrite H0, H1.
  destruct (valid_slot pg0) eqn:V0, (valid_slot pg1) eqn:V1; cbn [negb Z.eqb]; try reflexivity.
  destruct (txid_newer (h_txid (decode_header pg0)) (h_txid (decode_header pg1))); reflexivity.
Qed.

Corollary recover_uses_chosen_header fuel (d : cdisk) pg0 pg1 a t :
  d 0 = Some pg0 -> d 1 = Some pg1 -> choose pg0 pg1 = SelOk a t ->
  mon_recover fuel d = option_map fst (chase_full fuel d (decode_header (if a =? 0 then pg0 else pg1))).
Proof.
  intros H0 H1 Hc. pose proof (select_is_choose d pg0 pg1 H0 H1) as Hs. rewrite Hc in Hs.
  unfold mon_recover, recover. rewrite Hs. reflexivity.
Qed.

Corollary recover_fails_without_valid_header fuel (d : cdisk) pg0 pg1 :
  d 0 = Some pg0 -> d 1 = Some pg1 -> choose pg0 pg1 = SelErr -> mon_recover fuel d = None.
Proof.
  intros H0 H1 Hc. pose proof (select_is_choose d pg0 pg1 H0 H1) as Hs. rewrite Hc in Hs.
  unfold mon_recover, recover. rewrite Hs. reflexivity.
Qed.
