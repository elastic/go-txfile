(* A commit that fails after its allocation step (fileCommitPrepare, release of the old free-list pages,
   fileCommitAlloc have run; then an I/O error) is rolled back by tx.go. Nothing of the commit preparation is
   left in the allocator: the state after the rollback is the state the transaction began with (C07: "Commit
   returning an error"). The commit preparation only performs steps a transaction can perform itself (meta
   frees, one meta allocation), so the rollback theorem for reachable transaction states applies. *)
From VF Require Import Region Freelist Alloc RegionProofs AllocProofs MetaAllocProofs HistoryProofs OverflowProofs.
From Coq Require Import Lia ZifyBool.

Lemma treach_meta_free_regions a0 p a regs t : treach a0 p a t -> treach a0 p a (meta_free_regions t regs).
Proof.
  unfold meta_free_regions. revert t.
  induction (regions_ids regs) as [|id ids IH]; intros t R; cbn [fold_left]; [exact R | apply IH, tr_mfree, R].
Qed.

Lemma rollback_stats a t da df ma mf ofr tm : rollback a (tx_stats t da df ma mf 0 ofr tm) = rollback a t.
Proof. unfold rollback, tx_stats. cbn [st_ovf_alloc moveToMeta tdata tmeta]. rewrite Z.add_0_r. reflexivity. Qed.

Theorem commit_fail_exact a0 p a t extra r :
  Inv0 a0 -> treach a0 p a t -> metaTotal a < 2^28 ->
  commit_n a (if tx_updated t then meta_free_regions t (flPages a) else t) < 2^28 ->
  (forall a' t', treach a0 p a' t' -> a_end (meta a') - a_end (data a0) < 2^32) ->
  commit_fail_step a t extra = CoOk r ->
  restored a0 r.
Proof.
  intros I0 R Htot Hn Hsmall E.
  (* what is rolled back is a state the transaction could have reached itself *)
  enough (exists a' t', treach a0 p a' t' /\ r = rollback a' t') as (a' & t' & R' & ->)
    by exact (rollback_exact_full a0 p a' t' I0 R' (Hsmall _ _ R')).
  revert E. unfold commit_fail_step.
  set (t1 := if tx_updated t then meta_free_regions t (flPages a) else t) in *.
  assert (R1: treach a0 p a t1).
  { unfold t1. destruct (tx_updated t); [apply treach_meta_free_regions|]; exact R. }
  pose proof (commit_n_nonneg a t1) as Hn0.
  unfold commit_alloc. cbv zeta.
  destruct (tx_updated t || extra); cbn [negb]; [|intros [= <-]; eauto].
  change (p_count _) with (commit_n a t1).
  destruct (0 <? commit_n a t1) eqn:En; cbn [andb].
  - destruct (meta_alloc_regions a t1 _) as [[[regs a1] t1']|] eqn:Em; [|discriminate].
    pose proof (tr_meta a0 p a t1 (commit_n a t1) regs a1 t1' R1 ltac:(lia) Htot Em) as R2.
    destruct regs; [discriminate|]. destruct (commit_ends _ _ _ _ _) as [[[[[ml dl] de] me] of_] df].
    intros [= <-]. rewrite rollback_stats. eauto.
  - destruct (commit_ends _ _ _ _ _) as [[[[[ml dl] de] me] of_] df].
    intros [= <-]. rewrite rollback_stats. eauto.
Qed.

(* non-vacuity: a transaction allocates three pages (two from the free list, one from the end of the file), frees
   a committed page, and its commit fails after the free-list pages were allocated: the allocator is back at the
   state the transaction began with *)
Example commit_fail_ex :
  let a0 := ovf_ex in
  let '(regs, cnt, a1, t1) := data_alloc_regions a0 (make_tx a0 false 0) 3 in
  regs = [{| rid := 10; rcount := 2 |}; {| rid := 60; rcount := 1 |}] /\
  match data_free a1 t1 20 with
  | Some (a2, t2) => commit_fail_step a2 t2 false = CoOk a0
  | None => False
  end.
Proof. vm_compute. split; reflexivity. Qed.
