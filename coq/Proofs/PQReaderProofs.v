(* The queue reader as a state machine: every interleaving of Next and (partial) Read on the framed stream
   delivers exactly what the same operations deliver on the list of events; the page-level cursor moves by
   exactly the number of bytes it is asked to. *)
From VF Require Import PQ BytesProofs PQProofs.
From Coq Require Import Lia ZifyBool.

(* an event the 4-byte size field can describe; events WITHOUT contents (Writer.Next without Write) included *)
Definition okev (e : list Z) : Prop := Z.of_nat (length e) < 256 ^ Z.of_nat hdr_len.

(* the reader stands at position p of the stream, in front of the frames of the events still to come
   (between two events) or of the unread bytes b of the current event and then those frames (inside one) *)
Inductive Rsim (P : nat) (stream : list Z) (N : nat) : rst -> sst -> Prop :=
| R_between p rest post id :
    skipn p stream = layout_from P p rest ++ post -> (id + length rest = N)%nat ->
    Forall okev rest ->
    Rsim P stream N {| r_pos := p; r_left := None; r_id := id |} {| s_rest := rest; s_cur := None |}
| R_inside p b rest post id :
    skipn p stream = b ++ layout_from P (p + length b) rest ++ post -> (S id + length rest = N)%nat ->
    Forall okev rest ->
    Rsim P stream N {| r_pos := p; r_left := Some (length b); r_id := id |} {| s_rest := rest; s_cur := Some b |}.

Definition agree P stream N (x : option nat * list Z * rst) (y : option nat * list Z * sst) : Prop :=
  fst x = fst y /\ Rsim P stream N (snd x) (snd y).

(* Next from either kind of state: p1 and id1 are the values rd_step binds after skipping the unread rest *)
Lemma next_at P stream N st rest post cur :
  let p1 := (r_pos st + match r_left st with Some k => k | None => 0 end)%nat in
  let id1 := match r_left st with Some _ => S (r_id st) | None => r_id st end in
  skipn p1 stream = layout_from P p1 rest ++ post -> (id1 + length rest = N)%nat -> Forall okev rest ->
  agree P stream N (rd_step P stream N st RNext) (sp_step {| s_rest := rest; s_cur := cur |} RNext).
Proof.
  intros p1 id1 H Hn Hok. cbn [rd_step sp_step s_rest]. fold p1 id1. destruct rest as [|e r]; cbn [length] in Hn.
  - replace (N <=? id1)%nat with true by lia.
    split; [reflexivity|]. exact (R_between P stream N p1 [] post id1 H Hn Hok).
  - replace (N <=? id1)%nat with false by lia.
    apply Forall_cons_iff in Hok as [He Hok]. unfold okev in He.
    rewrite layout_from_cons, <- app_assoc in H. apply frame_at in H as [Hh Hb].
    rewrite Hh, le_decode_encode, Nat2Z.id by lia.
    split; [reflexivity|]. apply (R_inside P stream N _ e r post id1 Hb); [lia | exact Hok].
Qed.

Theorem rd_step_sim P stream N st s o :
  Rsim P stream N st s -> agree P stream N (rd_step P stream N st o) (sp_step s o).
Proof.
  intros R. destruct R as [p rest post id H Hn Hok | p b rest post id H Hn Hok]; destruct o as [|n].
  - apply (next_at P stream N _ rest post None); cbn; [rewrite Nat.add_0_r; exact H | exact Hn | exact Hok].
  - split; [reflexivity|]. exact (R_between P stream N p rest post id H Hn Hok).
  - apply (next_at P stream N _ rest post (Some b)); cbn; [exact (skipn_past H) | exact Hn | exact Hok].
  - cbn [rd_step sp_step r_pos r_left r_id s_cur s_rest].
    rewrite (slice_into _ H (Nat.le_min_r _ _)), <- firstn_firstn, firstn_all. split; [reflexivity|]. cbn [snd].
    pose proof (skipn_into _ H (Nat.le_min_r n (length b))) as H'.
    destruct (Nat.leb_spec (length b) n) as [Hle|Hlt].
    + rewrite Nat.min_r in * by exact Hle. rewrite skipn_all in H'.
      exact (R_between P stream N _ rest post (S id) H' Hn Hok).
    + rewrite Nat.min_l in * by lia. rewrite <- (skipn_length n b).
      apply (R_inside P stream N _ (skipn n b) rest post id); [|exact Hn | exact Hok].
      rewrite H', skipn_length. replace (p + n + (length b - n))%nat with (p + length b)%nat by lia. reflexivity.
Qed.

Theorem rd_run_sim P stream N : forall ops st s,
  Rsim P stream N st s -> rd_run P stream N st ops = sp_run s ops.
Proof.
  induction ops as [|o ops IH]; intros st s R; [reflexivity|].
  cbn [rd_run sp_run]. destruct (rd_step_sim P stream N st s o R) as [E R'].
  destruct (rd_step P stream N st o) as [out st'], (sp_step s o) as [out' s']. cbn [fst snd] in E, R'.
  rewrite E, (IH st' s' R'). destruct out'. reflexivity.
Qed.

(* C05, the reader: pq/reader.go on the framed bytes answers every sequence of Next / Read(n) calls as the same calls
   are answered on the list of events. That every event comes once and in order, that a Read never crosses the end of
   its event, that Next skips an unread rest and reports size 0 exactly at the end is read off sp_step. *)
Theorem reader_refines_events P pre evs post ops :
  Forall okev evs ->
  rd_run P (pre ++ layout_from P (length pre) evs ++ post) (length evs)
         {| r_pos := length pre; r_left := None; r_id := 0 |} ops
  = sp_run {| s_rest := evs; s_cur := None |} ops.
Proof.
  intros Hok. apply rd_run_sim. exact (R_between P _ _ _ evs post O (skipn_app_exact _ _) eq_refl Hok).
Qed.

Fixpoint drain_ops (evs : list (list Z)) : list rop :=
  match evs with [] => [RNext] | e :: r => RNext :: RRead (length e) :: drain_ops r end.
Fixpoint drain_out (evs : list (list Z)) : list (option nat * list Z) :=
  match evs with [] => [(Some O, [])] | e :: r => (Some (length e), []) :: (None, e) :: drain_out r end.
Lemma sp_drain : forall evs, sp_run {| s_rest := evs; s_cur := None |} (drain_ops evs) = drain_out evs.
Proof.
  induction evs as [|e r IH]; [reflexivity|].
  cbn [drain_ops drain_out sp_run sp_step s_rest s_cur]. rewrite firstn_all, Nat.leb_refl. f_equal. f_equal. exact IH.
Qed.
Corollary reader_drains_everything P pre evs post :
  Forall okev evs ->
  rd_run P (pre ++ layout_from P (length pre) evs ++ post) (length evs)
         {| r_pos := length pre; r_left := None; r_id := 0 |} (drain_ops evs) = drain_out evs.
Proof. intros H. rewrite reader_refines_events by exact H. apply sp_drain. Qed.

Theorem cur_adv_lin : forall fuel P pg off n,
  (0 < P)%nat -> (off <= P)%nat -> (n <= fuel)%nat ->
  let '(pg', off') := cur_adv fuel P pg off n in
  cur_lin P pg' off' = (cur_lin P pg off + n)%nat /\ (off' <= P)%nat.
Proof.
  induction fuel as [|f IH]; intros P pg off n HP Ho Hn.
  - cbn. unfold cur_lin. lia.
  - cbn [cur_adv]. destruct n as [|n']; [unfold cur_lin; lia|].
    (* turning the page at the end of a page keeps the linear position and leaves room: at least one byte is consumed *)
    set (c := if (P - off =? 0)%nat then (S pg, O) else (pg, off)).
    assert (Hc: cur_lin P (fst c) (snd c) = cur_lin P pg off /\ (snd c < P)%nat).
    { subst c. unfold cur_lin. destruct (Nat.eqb_spec (P - off) 0); cbn; lia. }
    destruct c as [pg1 off1]. cbn [fst snd] in Hc.
    set (mx := Nat.min (S n') (P - off1)).
    specialize (IH P pg1 (off1 + mx)%nat (S n' - mx)%nat HP ltac:(lia) ltac:(lia)).
    destruct (cur_adv f P pg1 (off1 + mx) (S n' - mx)) as [pg' off']. unfold cur_lin in *. lia.
Qed.

(* the cursor that changes page as soon as fewer than [thr] bytes are left (a seeded defect used thr = header
   size in Skip): bytes are lost *)
Fixpoint cur_adv_thr (thr fuel P : nat) (pg off n : nat) : nat * nat :=
  match fuel with
  | O => (pg, off)
  | S f =>
      match n with
      | O => (pg, off)
      | _ =>
          let '(pg1, off1) := if (P - off <? thr)%nat then (S pg, O) else (pg, off) in
          let mx := Nat.min n (P - off1) in
          cur_adv_thr thr f P pg1 (off1 + mx)%nat (n - mx)%nat
      end
  end.
Lemma cur_adv_thr_1 : forall fuel P pg off n, cur_adv_thr 1 fuel P pg off n = cur_adv fuel P pg off n.
Proof.
  induction fuel as [|f IH]; intros P pg off n; [reflexivity|]. cbn [cur_adv_thr cur_adv]. destruct n; [reflexivity|].
  destruct (P - off)%nat; apply IH.
Qed.
Theorem skip_threshold_refuted : exists P pg off n,
  (off <= P)%nat /\ let '(pg', off') := cur_adv_thr hdr_len n P pg off n in cur_lin P pg' off' <> (cur_lin P pg off + n)%nat.
Proof. exists 10%nat, 0%nat, 8%nat, 3%nat. split; [lia|]. vm_compute. lia. Qed.
